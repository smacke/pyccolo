(* Proofs about model/FragFun.v: the instrumented program, run under any schedule of function-guard activations, computes what the
   source computes and delivers the reference stream gated by the guards (DESIGN 3, "FragFun"). *)
From Coq Require Import List NArith Bool.
Import ListNotations.
From PyccoloV Require Import gen.PyAst gen.Ids gen.Events model.Tree model.RwFrag model.FragSem model.FragFun
  proofs.ListFacts proofs.FragSemProofs proofs.FragLog.
Local Open Scope N_scope.

Definition src_r (r : rhs) : bool :=
  match r with
  | RExp v => src_e v
  | RCall _ bc ba aa (XName _ _) args => negb bc && negb ba && negb aa && forallb src_e args
  | _ => false
  end.
(* statements of a function body / below the top level: no definitions *)
Fixpoint fsrc_b (s : fstmt) : bool :=
  match s with
  | FExpr _ r | FAssign _ _ r => src_r r
  | FPass _ => true
  | FIf _ t b o => src_e t && forallb fsrc_b b && forallb fsrc_b o
  | FReturn _ None => true
  | FReturn _ (Some r) => src_r r
  | _ => false
  end.
Definition fsrc_t (s : fstmt) : bool := match s with FDef _ _ _ body => forallb fsrc_b body | _ => fsrc_b s end.

Lemma src_r_case (P : rhs -> Prop) : (forall v, src_e v = true -> P (RExp v)) ->
  (forall cn nf f args, forallb src_e args = true -> P (RCall cn false false false (XName nf f) args)) -> forall r, src_r r = true -> P r.
Proof.
  intros He Hc r Hs. destruct r as [v|cn bc ba aa func args| |]; try discriminate Hs; [exact (He v Hs)|].
  destruct func; try discriminate Hs. destruct bc, ba, aa; try discriminate Hs. exact (Hc _ _ _ _ Hs).
Qed.

(* induction over the statements of a function body, each case with what `fsrc_b` says of it *)
Section SrcInd.
Variable P : fstmt -> Prop.
Hypothesis HExpr : forall n r, src_r r = true -> P (FExpr n r).
Hypothesis HAssign : forall n xs r, src_r r = true -> P (FAssign n xs r).
Hypothesis HPass : forall n, P (FPass n).
Hypothesis HIf : forall n t b o, src_e t = true -> forallb fsrc_b b = true -> forallb fsrc_b o = true ->
  Forall P b -> Forall P o -> P (FIf n t b o).
Hypothesis HReturn : forall n r, fsrc_b (FReturn n r) = true -> P (FReturn n r).
Fixpoint fsrc_b_ind (s : fstmt) : fsrc_b s = true -> P s :=
  let go := fix go (u : list fstmt) : forallb fsrc_b u = true -> Forall P u :=
    match u return forallb fsrc_b u = true -> Forall P u with
    | [] => fun _ => Forall_nil P
    | x :: u' => fun H => Forall_cons x (fsrc_b_ind x (proj1 (andb_prop _ _ H))) (go u' (proj2 (andb_prop _ _ H)))
    end in
  match s return fsrc_b s = true -> P s with
  | FExpr n r => HExpr n r
  | FAssign n xs r => HAssign n xs r
  | FPass n => fun _ => HPass n
  | FIf n t b o => fun H =>
      let Htb := andb_prop _ _ (proj1 (andb_prop _ _ H)) in
      HIf n t b o (proj1 Htb) (proj2 Htb) (proj2 (andb_prop _ _ H)) (go b (proj2 Htb)) (go o (proj2 (andb_prop _ _ H)))
  | FReturn n r => HReturn n r
  | _ => fun H => False_ind _ (diff_false_true H)
  end.
End SrcInd.

(* ... and over those of the module body: a definition needs no induction hypothesis, only its name is bound *)
Lemma fsrc_t_ind (P : fstmt -> Prop) : (forall s, fsrc_b s = true -> P s) ->
  (forall n name ps body, P (FDef n name ps body)) -> forall s, fsrc_t s = true -> P s.
Proof. intros Hb Hd s Hs. destruct s; try exact (Hb _ Hs). exact (Hd _ _ _ _). Qed.

Lemma fsrc_b_t u : forallb fsrc_b u = true -> forallb fsrc_t u = true.
Proof.
  induction u as [|x u IH]; [reflexivity|]. cbn [forallb]. intros H. apply andb_true_iff in H as [Hx Hu]. rewrite (IH Hu), andb_true_r.
  destruct x; try exact Hx; discriminate Hx.
Qed.

Lemma ie_src c t : src_e t = true -> xid (ie c t) = xid t /\ forall k, ie c t <> XLoadSaved k.
Proof.
  assert (W : forall e n t', xid t' = n /\ (forall k, t' <> XLoadSaved k) -> xid (wrap c e n t') = n /\ forall k, wrap c e n t' <> XLoadSaved k).
  { intros e n t' H. unfold wrap. destruct (sub c e); [split; [reflexivity|discriminate]|exact H]. }
  destruct t; intros Hs; try discriminate Hs; cbn [ie xid]; try (split; [reflexivity|discriminate]).
  - apply W. split; [reflexivity|discriminate].
  - destruct (const_ev c0); [apply W|]; split; reflexivity || discriminate.
  - apply W. destruct (sub c E_before_binop); split; reflexivity || discriminate.
  - apply W. destruct (sub c E_before_compare); [destruct (map _ comps)|]; split; reflexivity || discriminate.
Qed.

(* a callee is a function, a builtin, or not callable: the model's match on it, read through `vkind`, splits three ways and not into
   the seven constructors of `val` *)
Definition vkind (v : val) : option (N + N) := match v with VFun f => Some (inl f) | VBuiltin k => Some (inr k) | _ => None end.
Lemma vkind_match (T : Type) (A B : N -> T) (C : T) v :
  match v with VFun f => A f | VBuiltin k => B k | _ => C end = match vkind v with Some (inl f) => A f | Some (inr k) => B k | None => C end.
Proof. destruct v; reflexivity. Qed.

Section Fun.
Variable binop : N -> val -> val -> res val.
Variable cmpop : N -> val -> val -> res bool.
Variable unop : N -> val -> res val.
Variable truth : val -> bool.
Variable cval : scalar -> val.
Variable is_and : N -> bool.

Section FunProofs.
Variable c : rcfg.
Variable pol : list entry -> N -> bool.
Variable ge : bool.

Notation eval_e := (eval_e binop cmpop unop truth cval is_and).
Notation eval_src := (FragSemProofs.eval_src binop cmpop unop truth cval is_and).
Notation ref_e := (ref_e binop cmpop unop truth cval is_and).
Notation eval_args := (eval_args binop cmpop unop truth cval is_and).
Notation ref_args := (ref_args binop cmpop unop truth cval is_and).
Notation eval_r := (eval_r binop cmpop unop truth cval is_and).
Notation ref_r := (ref_r binop cmpop unop truth cval is_and).
Notation fexec_s := (fexec_s binop cmpop unop truth cval is_and c pol).
Notation fexec_l := (fexec_l binop cmpop unop truth cval is_and c pol).
Notation fref_s := (fref_s binop cmpop unop truth cval is_and).
Notation fref_l := (fref_l binop cmpop unop truth cval is_and).
Notation fgon := (fgon c pol).
Notation fl := (filter_log c).

Lemma fl_emitted_r e n q : fl (emitted_r e n q) = if sub c e then emitted_r e n q else [].
Proof. destruct q; [apply fl_single|destruct (sub c e); reflexivity]. Qed.
Lemma fgon_fl p p' g : fl p = fl p' -> fgon p g = fgon p' g.
Proof. unfold FragFun.fgon. intros ->. reflexivity. Qed.
Lemma fl_fsay q l : fl (fsay q l) = fsay q (fl l).
Proof. destruct q; reflexivity. Qed.

(* an emission the instrumented program makes under a subscription test is filtered like the emission itself: with these two
   equations both sides of a log equation reach the same form without a case split on the subscriptions *)
Lemma fl_gated e n v : fl (if sub c e then [(e, n, v)] else []) = if sub c e then [(e, n, v)] else [].
Proof. destruct (sub c e) eqn:E; [rewrite fl_single, E|]; reflexivity. Qed.
Lemma fl_gated_r e n q : fl (if sub c e then emitted_r e n q else []) = fl (emitted_r e n q).
Proof. rewrite fl_emitted_r. destruct q; [apply fl_gated|destruct (sub c e); reflexivity]. Qed.

(* both sides of a log equation to one form: a concatenation, right-nested, of `fl x` for the atoms x and of `if sub c e then [..] else []`
   for the entries; `fin` closes the equation if the two forms coincide *)
Ltac lognorm := cbn [app fst snd]; rewrite ?fl_app, ?fl_gated_r; cbn [app emitted_r];
             rewrite ?fl_app, ?fl_gated, ?fl_idem; repeat (progress rewrite ?fl_cons, ?fl_app);
             rewrite ?fl_nil, ?fl_emitted_r, ?app_nil_r.
Ltac fin := lognorm; rewrite <- ?app_assoc; reflexivity.


Lemma args_loud args lk : forallb src_e args = true ->
  eval_args (sub c E_before_argument) (sub c E_after_argument) (map (ie c) args) lk = (fst (ref_args false args lk), fl (snd (ref_args false args lk))).
Proof.
  induction args as [|a rest IH]; intros Hs; [reflexivity|].
  cbn [forallb] in Hs. apply andb_true_iff in Hs as [Ha Hr]. specialize (IH Hr).
  cbn [map FragFun.eval_args FragFun.ref_args]. rewrite IH, (proj1 (ie_src c a Ha)), (eval_ie _ _ _ _ _ _ c a Ha lk).
  destruct (ref_e a lk) as [[v|e] l]; cbn [fst snd fsay].
  - destruct (ref_args false rest lk) as [[vs|e] l']; cbn [fst snd]; f_equal; fin.
  - f_equal. fin.
Qed.

Lemma args_quiet args lk : forallb src_e args = true ->
  eval_args false false args lk = (fst (ref_args true args lk), []) /\ snd (ref_args true args lk) = [].
Proof.
  induction args as [|a rest IH]; intros Hs; [split; reflexivity|].
  cbn [forallb] in Hs. apply andb_true_iff in Hs as [Ha Hr]. destruct (IH Hr) as [I1 I2].
  cbn [FragFun.eval_args FragFun.ref_args]. rewrite I1, (eval_src a lk Ha).
  destruct (ref_e a lk) as [[v|e] l]; cbn [fst snd fsay app].
  - destruct (ref_args true rest lk) as [[vs|e] l']; cbn [fst snd] in *; subst; split; reflexivity.
  - split; reflexivity.
Qed.

(* the equations of the evaluator, whatever subscription, guard policy and calls it is run with *)
Lemma fexec_l_cons cc pp call sc glob x u r sv pre :
  FragFun.fexec_l binop cmpop unop truth cval is_and cc pp call sc glob (x :: u) r sv pre =
  fseq (FragFun.fexec_s binop cmpop unop truth cval is_and cc pp call sc glob x r sv pre)
       (FragFun.fexec_l binop cmpop unop truth cval is_and cc pp call sc glob u) pre.
Proof. exact eq_refl. Qed.
Lemma fexec_FIf cc pp call sc glob n t b o r sv pre :
  FragFun.fexec_s binop cmpop unop truth cval is_and cc pp call sc glob (FIf n t b o) r sv pre =
  let '(q, l) := eval_e t (look sc glob r) in
  match q with
  | Ok vt => let a := FragFun.fexec_l binop cmpop unop truth cval is_and cc pp call sc glob (if truth vt then b else o) r sv (pre ++ l) in
             {| f_exc := f_exc a; f_env := f_env a; f_saved := f_saved a; f_log := l ++ f_log a |}
  | Err e => {| f_exc := Some (FX e); f_env := r; f_saved := sv; f_log := l |}
  end.
Proof. exact eq_refl. Qed.

Definition rsim (x : rr * val * list entry) (y : rr * list entry) : Prop := fst (fst x) = fst y /\ fl (snd x) = fl (snd y).
Definition call_sim (call : callT) (callr : callR) : Prop :=
  forall f vs glob sv p p', fl p = fl p' -> rsim (call f vs glob sv p) (callr f vs glob p').

Lemma rsim_elim (G : rr * val * list entry -> rr * list entry -> Prop) x y : rsim x y ->
  (forall q sv l l', fl l = fl l' -> G (q, sv, l) (q, l')) -> G x y.
Proof. destruct x as [[q sv] l], y as [q' l']. intros [E H] K. cbn [fst snd] in E, H. subst q'. exact (K q sv l l' H). Qed.

Section WithCalls.
Variable call : callT.
Variable callr : callR.
Hypothesis call_ok : call_sim call callr.

Lemma eval_wrapR e n r lk glob sv p :
  eval_r call lk glob (wrapR c e n r) sv p =
  let '(q, sv', l) := eval_r call lk glob r sv p in (q, sv', l ++ if sub c e then emitted_r e n q else []).
Proof.
  unfold wrapR. destruct (sub c e); cbn [FragFun.eval_r].
  - reflexivity.
  - destruct (eval_r call lk glob r sv p) as [[q sv'] l]. rewrite app_nil_r. reflexivity.
Qed.

Lemma eval_defR e n r lk glob sv p : exists p2, fl p2 = fl (p ++ [(e, n, None)]) /\
  eval_r call lk glob (defR c e n r) sv p =
  let '(q, sv', l) := eval_r call lk glob r sv p2 in (q, sv', (if sub c e then [(e, n, None)] else []) ++ l).
Proof.
  unfold defR. destruct (sub c e) eqn:E.
  - exists (p ++ [(e, n, None)]). split; [reflexivity|]. cbn [FragFun.eval_r]. reflexivity.
  - exists p. split; [rewrite fl_app, fl_single, E, app_nil_r; reflexivity|].
    destruct (eval_r call lk glob r sv p) as [[q sv'] l]. reflexivity.
Qed.

Lemma rhs_loud r : src_r r = true -> forall lk glob sv p p', fl p = fl p' ->
  rsim (eval_r call lk glob (ir c r) sv p) (ref_r callr false lk glob r p').
Proof.
  revert r. refine (src_r_case _ _ _).
  - intros v Hs lk glob sv p p' _. cbn [ir FragFun.eval_r FragFun.ref_r]. rewrite (eval_ie _ _ _ _ _ _ c v Hs lk).
    destruct (ref_e v lk) as [q l]. split; [reflexivity|apply fl_idem].
  - intros cn nf f args Ha lk glob sv p p' Hp.
    cbn [ir]. rewrite eval_wrapR. edestruct eval_defR as (p2 & Hp2 & ->). rewrite eval_wrapR. cbn [FragFun.eval_r FragFun.ref_r].
    rewrite (eval_ie _ _ _ _ _ _ c (XName nf f) eq_refl lk), (args_loud args lk Ha).
    destruct (ref_e (XName nf f) lk) as [[vf|e] lf]; cbn [fst snd fsay]; [|split; [reflexivity|fin]].
    destruct (ref_args false args lk) as [[vs|e] la]; cbn [fst snd]; [|split; [reflexivity|fin]].
    rewrite !vkind_match. destruct (vkind vf) as [[g|k]|]; try (split; [reflexivity|fin]).
    (* a function: the streams delivered before the call agree, so the calls do *)
    assert (HP : fl (p2 ++ fl lf ++ (if sub c E_before_call then [(E_before_call, cn, Some vf)] else []) ++ fl la) =
                 fl (p' ++ ([(E_before_load_complex_symbol, cn, None)] ++ lf ++ [(E_before_call, cn, Some vf)]) ++ la))
      by (rewrite !fl_app, Hp2, !fl_app, Hp; fin).
    destruct (call_ok g vs glob sv _ _ HP) as [C1 C2].
    destruct (call g vs glob sv _) as [[q sv'] lc], (callr g vs glob _) as [q' lc']. cbn [fst snd] in C1, C2. subst q'.
    split; [reflexivity|]. cbn [snd]. rewrite !fl_app, C2. fin.
Qed.

Lemma rhs_quiet r : src_r r = true -> forall lk glob sv p p', fl p = fl p' ->
  rsim (eval_r call lk glob r sv p) (ref_r callr true lk glob r p').
Proof.
  revert r. refine (src_r_case _ _ _).
  - intros v Hs lk glob sv p p' _. cbn [FragFun.eval_r FragFun.ref_r]. rewrite (eval_src v lk Hs).
    destruct (ref_e v lk) as [q l]. split; reflexivity.
  - intros cn nf f args Ha lk glob sv p p' Hp.
    cbn [FragFun.eval_r FragFun.ref_r]. rewrite (eval_src (XName nf f) lk eq_refl).
    destruct (args_quiet args lk Ha) as [A1 A2]. rewrite A1.
    destruct (ref_e (XName nf f) lk) as [[vf|e] lf]; cbn [fst snd fsay app]; [|split; reflexivity].
    destruct (ref_args true args lk) as [[vs|e] la]; cbn [fst snd] in *; subst la; [|split; reflexivity].
    rewrite !vkind_match. destruct (vkind vf) as [[g|k]|]; try (split; reflexivity).
    rewrite !app_nil_r. destruct (call_ok g vs glob sv p p' Hp) as [C1 C2].
    destruct (call g vs glob sv p) as [[q sv'] lc], (callr g vs glob p') as [q' lc']. cbn [fst snd] in C1, C2. subst q'.
    split; [reflexivity|]. cbn [snd app]. rewrite app_nil_r. exact C2.
Qed.

Notation X_s := (fexec_s call).
Notation X_l := (fexec_l call).
Notation R_s := (fref_s callr).
Notation R_l := (fref_l callr).

Lemma fexec_l_nil sc glob r sv pre : X_l sc glob [] r sv pre = {| f_exc := None; f_env := r; f_saved := sv; f_log := [] |}.
Proof. exact eq_refl. Qed.
Lemma fexec_FBefore sc glob n tb own r sv pre :
  X_s sc glob (FBefore n tb own) r sv pre =
  let a := X_l sc glob own r sv (pre ++ [(E_before_stmt, n, Some VNone)]) in
  {| f_exc := f_exc a; f_env := f_env a; f_saved := f_saved a; f_log := (E_before_stmt, n, Some VNone) :: f_log a |}.
Proof. exact eq_refl. Qed.
Lemma fexec_FGuardIf sc glob g before i p r sv pre :
  X_s sc glob (FGuardIf g before i p) r sv pre =
  if fgon pre g then
    match before with
    | Some n => let a := X_l sc glob i r sv (pre ++ [(E_before_function_body, n, Some (cval (SBool true)))]) in
                {| f_exc := f_exc a; f_env := f_env a; f_saved := f_saved a; f_log := (E_before_function_body, n, Some (cval (SBool true))) :: f_log a |}
    | None => X_l sc glob i r sv pre
    end
  else X_l sc glob p r sv pre.
Proof. exact eq_refl. Qed.
Lemma fexec_FTry sc glob b fin r sv pre :
  X_s sc glob (FTry b fin) r sv pre =
  let a := X_l sc glob b r sv pre in
  let z := X_l sc glob fin (f_env a) (f_saved a) (pre ++ f_log a) in
  {| f_exc := match f_exc z with Some x => Some x | None => f_exc a end; f_env := f_env z; f_saved := f_saved z; f_log := f_log a ++ f_log z |}.
Proof. exact eq_refl. Qed.
Lemma fexec_FNameTry sc glob b p r sv pre : X_s sc glob (FNameTry b p) r sv pre = X_l sc glob b r sv pre.
Proof. exact eq_refl. Qed.
Lemma fexec_FEmit_some e n v g sc glob r sv pre : (forall k, v <> RExp (XLoadSaved k)) ->
  X_s sc glob (FEmit e n (Some v) g) r sv pre =
  let '(q, sv', l) := eval_r call (look sc glob r) (globs sc glob r) v sv pre in
  match q with
  | ROk x => {| f_exc := None; f_env := r; f_saved := (if event_eqb e E_after_stmt then x else sv'); f_log := l ++ [(e, n, Some x)] |}
  | RErr x => {| f_exc := Some x; f_env := r; f_saved := sv'; f_log := l |}
  end.
Proof.
  intros H. destruct v as [v| | |]; try exact eq_refl. destruct v as [| | | | | | | | | | |k|]; try exact eq_refl.
  exfalso. exact (H k eq_refl).
Qed.

Lemma fexec_l_single sc glob x r sv pre : X_l sc glob [x] r sv pre = X_s sc glob x r sv pre.
Proof. rewrite fexec_l_cons. unfold fseq. cbn. destruct (X_s sc glob x r sv pre) as [[e|] r' sv' l]; cbn; rewrite ?app_nil_r; reflexivity. Qed.
Lemma fexec_l_app sc glob u w : forall r sv pre, X_l sc glob (u ++ w) r sv pre = fseq (X_l sc glob u r sv pre) (X_l sc glob w) pre.
Proof.
  induction u as [|x u IH]; intros r sv pre.
  - cbn [app]. unfold fseq. cbn. rewrite app_nil_r. destruct (X_l sc glob w r sv pre); reflexivity.
  - cbn [app]. rewrite !fexec_l_cons. unfold fseq at 1 3. destruct (f_exc (X_s sc glob x r sv pre)) eqn:E.
    + unfold fseq. rewrite E. reflexivity.
    + rewrite IH. unfold fseq. cbn [f_exc f_env f_saved f_log].
      destruct (f_exc (X_l sc glob u (f_env (X_s sc glob x r sv pre)) (f_saved (X_s sc glob x r sv pre)) (pre ++ f_log (X_s sc glob x r sv pre)))) eqn:E2;
        cbn [f_exc f_env f_saved f_log]; rewrite ?E2; [reflexivity|].
      rewrite !app_assoc. reflexivity.
Qed.

(* what the reference does for the statement proper, in the shape of the body of `fref_s`: `fref_unfold` is a conversion *)
Definition fbody_of (quiet : bool) (sc : scope) (glob : env) (s : fstmt) (r : env) (pre0 : list entry) : option fexc * env * list entry * val :=
  let say := fsay quiet in
  let n := fid s in
  match s with
  | FExpr _ v => let '(q, l) := ref_r callr quiet (look sc glob r) (globs sc glob r) v pre0 in
                 (fexc_of q, r, l ++ say (emitted_r E_after_expr_stmt n q), match q with ROk x => x | RErr _ => VNone end)
  | FAssign _ xs v =>
      let '(q, l) := ref_r callr quiet (look sc glob r) (globs sc glob r) v (pre0 ++ say [(E_before_assign_rhs, rid v, None)]) in
      (fexc_of q, match q with ROk x => fold_left (fun r' y => upd r' y x) xs r | RErr _ => r end,
       say [(E_before_assign_rhs, rid v, None)] ++ l ++ say (emitted_r E_after_assign_rhs (rid v) q), VNone)
  | FPass _ => (None, r, [], VNone)
  | FIf _ t b o =>
      let '(q, l) := ref_e t (look sc glob r) in
      match q with
      | Ok vt => let l1 := say (l ++ [(E_after_if_test, n, Some vt)]) in
                 let a := R_l quiet false sc glob (if truth vt then b else o) r (pre0 ++ l1) in
                 (fr_exc a, fr_env a, l1 ++ fr_log a, VNone)
      | Err e => (Some (FX e), r, say l, VNone)
      end
  | FReturn _ None => (Some (FRet VNone), r, [], VNone)
  | FReturn _ (Some v) =>
      let '(q, l) := ref_r callr quiet (look sc glob r) (globs sc glob r) v (pre0 ++ say [(E_before_return, rid v, None)]) in
      (Some (match q with ROk x => FRet x | RErr e => e end), r,
       say [(E_before_return, rid v, None)] ++ l ++ say (emitted_r E_after_return (rid v) q), VNone)
  | FDef n name _ _ => (None, upd r name (VFun n), [], VNone)
  | _ => (Some (FX ETypeError), r, [], VNone)
  end.

Definition fbst (s : fstmt) : entry := (E_before_stmt, fid s, Some VNone).
Lemma fref_unfold quiet m sc glob s r pre : R_s quiet m sc glob s r pre =
  let '(x, r', l, v) := fbody_of quiet sc glob s r (pre ++ fsay quiet [fbst s]) in
  let after_value := if m then v else VNone in
  {| fr_exc := x; fr_env := r';
     fr_log := fsay quiet [fbst s] ++ l ++
               match x with
               | Some _ => []
               | None => fsay quiet ((E_after_stmt, fid s, Some after_value) :: (if m then [(E_after_module_stmt, fid s, Some after_value)] else []))
               end |}.
Proof. destruct s; exact eq_refl. Qed.

Lemma fref_l_cons quiet m sc glob x u r pre :
  R_l quiet m sc glob (x :: u) r pre = frseq (R_s quiet m sc glob x r pre) (R_l quiet m sc glob u) pre.
Proof. exact eq_refl. Qed.

Definition fsim (a : fres) (b : frres) : Prop := f_exc a = fr_exc b /\ f_env a = fr_env b /\ fl (f_log a) = fl (fr_log b).

Lemma fsim_seq a b k kr p p' : fl p = fl p' -> fsim a b ->
  (forall r sv q q', fl q = fl q' -> fsim (k r sv q) (kr r q')) -> fsim (fseq a k p) (frseq b kr p').
Proof.
  intros Hp H Hk. pose proof H as (E1 & E2 & E3). unfold fseq, frseq. rewrite E1, <- E2. destruct (fr_exc b); [exact H|].
  destruct (Hk (f_env a) (f_saved a) _ _ (fl_pre c _ _ _ _ Hp E3)) as (F1 & F2 & F3).
  repeat split; try assumption. apply fl_pre; assumption.
Qed.

Lemma fsim_pre l l' a b : fl l = fl l' -> fsim a b ->
  fsim {| f_exc := f_exc a; f_env := f_env a; f_saved := f_saved a; f_log := l ++ f_log a |}
       {| fr_exc := fr_exc b; fr_env := fr_env b; fr_log := l' ++ fr_log b |}.
Proof. intros Hl (E1 & E2 & E3). repeat split; try assumption. apply fl_pre; assumption. Qed.

(* the pristine copy: source semantics, only the callees speak *)
Definition fquiet_ok (s : fstmt) : Prop := fsrc_b s = true -> forall sc glob r sv p p', fl p = fl p' ->
  fsim (X_s sc glob s r sv p) (R_s true false sc glob s r p').

Definition fbody_res (quiet : bool) (sc : scope) (glob : env) (s : fstmt) (r : env) (pre0 : list entry) : frres :=
  let '(x, r', l, _) := fbody_of quiet sc glob s r pre0 in {| fr_exc := x; fr_env := r'; fr_log := l |}.

Lemma fref_quiet sc glob s r pre : R_s true false sc glob s r pre = fbody_res true sc glob s r pre.
Proof.
  rewrite fref_unfold. unfold fbody_res. cbn [fsay app]. rewrite app_nil_r.
  destruct (fbody_of true sc glob s r pre) as [[[[x|] r'] l] v]; rewrite app_nil_r; reflexivity.
Qed.

Lemma fquiet_list u : Forall fquiet_ok u -> forallb fsrc_b u = true ->
  forall sc glob r sv p p', fl p = fl p' -> fsim (X_l sc glob u r sv p) (R_l true false sc glob u r p').
Proof.
  induction 1 as [|x u Hx _ IH]; intros Hs sc glob r sv p p' Hp; [repeat split|]. cbn [forallb] in Hs. apply andb_true_iff in Hs as [Hsx Hs].
  rewrite fexec_l_cons, fref_l_cons. apply fsim_seq; [exact Hp|exact (Hx Hsx _ _ _ _ _ _ Hp)|intros; apply IH; assumption].
Qed.

Lemma rhs_quiet_elim (G : rr * val * list entry -> rr * list entry -> Prop) v lk glob sv p p' : src_r v = true -> fl p = fl p' ->
  (forall q sv' l l', fl l = fl l' -> G (q, sv', l) (q, l')) -> G (eval_r call lk glob v sv p) (ref_r callr true lk glob v p').
Proof. intros Hs Hp. exact (rsim_elim G _ _ (rhs_quiet v Hs lk glob sv p p' Hp)). Qed.

Theorem fquiet_stmt : forall s, fquiet_ok s.
Proof.
  (* `fquiet_ok s` has the hypothesis `fsrc_b s = true` inside, and the induction consumes one: a copy for each *)
  intros s Hs. generalize Hs. revert s Hs. refine (fsrc_b_ind _ _ _ _ _ _).
  - intros n v Hs _ sc glob r sv pa pb Hp. rewrite fref_quiet. unfold fbody_res. cbn [fbody_of FragFun.fexec_s fsay].
    apply rhs_quiet_elim; [exact Hs|exact Hp|]. intros q sv' l l' Hl. repeat split. rewrite app_nil_r. exact Hl.
  - intros n xs v Hs _ sc glob r sv pa pb Hp. rewrite fref_quiet. unfold fbody_res. cbn [fbody_of FragFun.fexec_s fsay app]. rewrite app_nil_r.
    apply rhs_quiet_elim; [exact Hs|exact Hp|]. intros [x|e] sv' l l' Hl; repeat split; rewrite app_nil_r; exact Hl.
  - repeat split.
  - intros n t b o Ht Hb Ho Fb Fo _ sc glob r sv pa pb Hp. rewrite fref_quiet. unfold fbody_res. cbn [fbody_of fsay app].
    rewrite fexec_FIf, (eval_src t _ Ht). destruct (ref_e t (look sc glob r)) as [[vt|e] l]; cbn [fst snd]; [|repeat split].
    rewrite !app_nil_r. apply (fsim_pre [] [] _ _ eq_refl). destruct (truth vt); apply fquiet_list; assumption.
  - intros n [v|] Hs _ sc glob r sv pa pb Hp; [|repeat split]. rewrite fref_quiet. unfold fbody_res. cbn [fbody_of FragFun.fexec_s fsay app]. rewrite app_nil_r.
    apply rhs_quiet_elim; [exact Hs|exact Hp|]. intros q sv' l l' Hl. repeat split. rewrite app_nil_r. exact Hl.
Qed.

Definition floud_ok (s : fstmt) : Prop := fsrc_t s = true -> forall m sc glob r sv p p', fl p = fl p' ->
  fsim (X_l sc glob (fis c ge m s) r sv p) (R_s false m sc glob s r p').

Lemma floud_list u : Forall floud_ok u -> forallb fsrc_t u = true ->
  forall m sc glob r sv p p', fl p = fl p' -> fsim (X_l sc glob (flat_map (fis c ge m) u) r sv p) (R_l false m sc glob u r p').
Proof.
  induction 1 as [|x u Hx _ IH]; intros Hs m sc glob r sv p p' Hp; [repeat split|]. cbn [forallb] in Hs. apply andb_true_iff in Hs as [Hsx Hs].
  cbn [flat_map]. rewrite fexec_l_app, fref_l_cons. apply fsim_seq; [exact Hp|exact (Hx Hsx _ _ _ _ _ _ _ Hp)|intros; apply IH; assumption].
Qed.

(* the instrumented right-hand side inside EMIT(e1, k, ret=...), as the value of an expression statement is ... *)
Lemma rhs_wrapped (G : rr * val * list entry -> rr * list entry -> Prop) e1 k v lk glob sv p p' : src_r v = true -> fl p = fl p' ->
  (forall q sv' l l', fl l = fl (l' ++ emitted_r e1 k q) -> G (q, sv', l) (q, l')) ->
  G (eval_r call lk glob (wrapR c e1 k (ir c v)) sv p) (ref_r callr false lk glob v p').
Proof.
  intros Hs Hp K. rewrite eval_wrapR. pattern (eval_r call lk glob (ir c v) sv p), (ref_r callr false lk glob v p').
  apply (rsim_elim _ _ _ (rhs_loud v Hs lk glob sv p p' Hp)). intros q sv' l l' Hl.
  apply K. rewrite !fl_app, Hl, fl_gated_r. reflexivity.
Qed.
(* ... and between its two events, as that of an assignment or a `return` is *)
Lemma rhs_framed (G : rr * val * list entry -> rr * list entry -> Prop) e0 e1 k v lk glob sv p p' : src_r v = true -> fl p = fl p' ->
  (forall q sv' l l', fl l = fl ([(e0, k, None)] ++ l' ++ emitted_r e1 k q) -> G (q, sv', l) (q, l')) ->
  G (eval_r call lk glob (wrapR c e1 k (defR c e0 k (ir c v))) sv p) (ref_r callr false lk glob v (p' ++ [(e0, k, None)])).
Proof.
  intros Hs Hp K. rewrite eval_wrapR. destruct (eval_defR e0 k (ir c v) lk glob sv p) as (p2 & Hp2 & ->).
  assert (HP : fl p2 = fl (p' ++ [(e0, k, None)])) by (rewrite Hp2; apply fl_pre; [exact Hp|reflexivity]).
  pattern (eval_r call lk glob (ir c v) sv p2), (ref_r callr false lk glob v (p' ++ [(e0, k, None)])).
  apply (rsim_elim _ _ _ (rhs_loud v Hs lk glob sv p2 _ HP)). intros q sv' l l' Hl. apply K. rewrite !fl_app, Hl. fin.
Qed.

Definition f_is_expr (s : fstmt) : bool := match s with FExpr _ _ => true | _ => false end.
Definition fwants (m : bool) : bool := sub c E_after_stmt || (sub c E_after_module_stmt && m).
Definition fthunk_branch (m : bool) (s : fstmt) : list fstmt :=
  fmain_and_after (fwants m) m (fid s) (FExpr 0 (RExp XThunkCall)) true (RExp XThunkCall).

(* a twin of `fis` (see `gexec` in FragSemProofs.v); rewrite with `fis_unfold` *)
Definition fmain (rec : fstmt -> list fstmt) (s : fstmt) : fstmt :=
  match s with
  | FExpr n r => FExpr n (wrapR c E_after_expr_stmt n (ir c r))
  | FAssign n xs r => FAssign n xs (wrapR c E_after_assign_rhs (rid r) (defR c E_before_assign_rhs (rid r) (ir c r)))
  | FIf n t b o => FIf n (wrap c E_after_if_test n (ie c t)) (flat_map rec b) (flat_map rec o)
  | FReturn n (Some r) => FReturn n (Some (wrapR c E_after_return (rid r) (defR c E_before_return (rid r) (ir c r))))
  | FDef n name ps body =>
      let b' := flat_map rec body in
      let wa := if sub c E_after_function_execution
                then [FTry b' [FEmit E_after_function_execution n None (Some (if ge then Some n else None))]] else b' in
      FDef n name ps
        [FNameTry
           (if ge then [FGuardIf n (if sub c E_before_function_body then Some n else None) wa body]
            else (if sub c E_before_function_body then [FEmit E_before_function_body n (Some (RExp (XConst 0 (SBool true)))) None] else []) ++ wa)
           body]
  | other => other
  end.
Definition fown (m : bool) (s main : fstmt) : list fstmt :=
  match s with
  | FReturn _ _ => [main]
  | _ => fmain_and_after (fwants m) m (fid s) main (f_is_expr s) (match main with FExpr _ v => v | _ => RExp XThunkCall end)
  end.
Definition fstmt_wrap (m : bool) (s : fstmt) (own : list fstmt) : list fstmt :=
  let expanded := if sub c E_before_stmt then [FBefore (fid s) (fthunk_branch m s) own] else own in
  if m && sub c E_after_module_stmt then expanded ++ [FEmit E_after_module_stmt (fid s) (Some (RExp (XLoadSaved (fid s)))) None] else expanded.
Fixpoint fis' (m : bool) (s : fstmt) {struct s} : list fstmt := fstmt_wrap m s (fown m s (fmain (fis' false) s)).
Lemma fis_fix : fis c ge = fis'.
Proof. exact eq_refl. Qed.

Definition fmain_of (s : fstmt) : fstmt := fmain (fis c ge false) s.
Definition fown_of (m : bool) (s : fstmt) : list fstmt := fown m s (fmain_of s).
Lemma fis_unfold m s : fis c ge m s = fstmt_wrap m s (fown_of m s).
Proof. unfold fown_of, fmain_of. rewrite fis_fix. destruct s; reflexivity. Qed.

(* `fown_of` in one formula: the value handed to after_stmt is that of the main statement, and nothing follows a `return` *)
Definition fmvalue (s : fstmt) : rhs := match fmain_of s with FExpr _ v => v | _ => RExp XThunkCall end.
Definition fafter (m : bool) (s : fstmt) : bool := match s with FReturn _ _ => false | _ => fwants m end.
Lemma fown_of_eq m s : fown_of m s = fmain_and_after (fafter m s) m (fid s) (fmain_of s) (f_is_expr s) (fmvalue s).
Proof. destruct s; reflexivity. Qed.

Definition fmain_ok (s : fstmt) : Prop := forall sc glob r sv pm pr, fl pm = fl pr ->
  fsim (X_s sc glob (fmain_of s) r sv pm) (fbody_res false sc glob s r pr).

Lemma ir_not_load e n v : src_r v = true -> forall k, wrapR c e n (ir c v) <> RExp (XLoadSaved k).
Proof.
  intros Hs k. unfold wrapR. destruct (sub c e); [discriminate|]. revert v Hs. refine (src_r_case _ _ _).
  - intros v Hs [= H]. exact (proj2 (ie_src c v Hs) k H).
  - intros. cbn [ir]. unfold wrapR, defR. destruct (sub c E_after_load_complex_symbol); [discriminate|].
    destruct (sub c E_before_load_complex_symbol); [discriminate|]. destruct (sub c E_after_call); discriminate.
Qed.

(* the statement's own code: its main statement and the after_stmt emission, whose value (of an expression statement of the module)
   is what after_module_stmt will be given *)
Definition fown_concl (s : fstmt) (m : bool) (sc : scope) (glob r : env) (pr : list entry) (O : fres) : Prop :=
  let '(x, r', l, v) := fbody_of false sc glob s r pr in
  let av := if m then v else VNone in
  f_exc O = x /\ f_env O = r' /\
  fl (f_log O) = fl (l ++ match x with None => [(E_after_stmt, fid s, Some av)] | Some _ => [] end) /\
  (fwants m = true -> x = None -> f_saved O = av).

Lemma fbody_value sc glob s r pr m : f_is_expr s && m = false ->
  (if m then snd (fbody_of false sc glob s r pr) else VNone) = VNone.
Proof.
  intros He. destruct m; [|reflexivity]. rewrite andb_true_r in He.
  destruct s as [n v|n xs v|n|n t b o|n v| | | | | |]; try discriminate He; try reflexivity; cbn [fbody_of].
  - (* FAssign *) destruct (ref_r callr false _ _ v _); reflexivity.
  - (* FIf *) destruct (ref_e t (look sc glob r)) as [[vt|e] l]; reflexivity.
  - (* FReturn *) destruct v as [v|]; [destruct (ref_r callr false _ _ v _)|]; reflexivity.
Qed.
(* the after_stmt emission is left out after a `return` only, which never ends normally *)
Lemma fbody_return sc glob s r pr m : fafter m s = false -> fst (fst (fst (fbody_of false sc glob s r pr))) = None -> fwants m = false.
Proof.
  destruct s as [| | | |n v| | | | | |]; try exact (fun W _ => W). intros _. cbn [fbody_of].
  destruct v as [v|]; [destruct (ref_r callr false _ _ v _)|]; discriminate.
Qed.

Lemma fown_ok s m : fsrc_t s = true -> fmain_ok s -> forall sc glob r sv pm pr, fl pm = fl pr ->
  fown_concl s m sc glob r pr (X_l sc glob (fown_of m s) r sv pm).
Proof.
  intros Hs HM sc glob r sv pm pr Hp. unfold fown_concl. rewrite fown_of_eq. unfold fmain_and_after.
  destruct (fafter m s) eqn:W; [destruct (f_is_expr s && m) eqn:EM|].
  - (* an expression statement of the module: evaluated inside the emission, which saves its value *)
    destruct s as [n v| | | | | | | | | |]; try discriminate EM. destruct m; [|discriminate EM]. cbn [fsrc_t fsrc_b fafter] in Hs, W.
    cbn [fmvalue fmain_of fmain fid fbody_of fsay].
    rewrite fexec_l_single, (fexec_FEmit_some _ _ _ _ _ _ _ _ _ (ir_not_load E_after_expr_stmt n v Hs)).
    apply rhs_wrapped; [exact Hs|exact Hp|]. intros [x|e] sv' l l' Hl; cbn [fexc_of]; repeat split; try (cbn [f_log]; rewrite fl_app, Hl; fin).
    intros _ H. discriminate H.
  - (* the main statement, then the emission *)
    pose proof (fbody_value sc glob s r pr m EM) as Hav. specialize (HM sc glob r sv pm pr Hp). unfold fbody_res in HM.
    destruct (fbody_of false sc glob s r pr) as [[[x r'] l] v]. destruct HM as (A1 & A2 & A3). cbn [snd fr_exc fr_env fr_log] in *. rewrite Hav.
    rewrite fexec_l_cons. unfold fseq. rewrite A1. destruct x as [e|].
    + repeat split; try assumption; [rewrite app_nil_r; exact A3|intros _ H; discriminate H].
    + rewrite fexec_l_single. repeat split; try assumption. cbn [FragFun.fexec_s f_log]. apply fl_pre; [exact A3|reflexivity].
  - (* the main statement alone: after_stmt is not subscribed, or the statement is a `return` *)
    pose proof (fbody_return sc glob s r pr m W) as Hx. specialize (HM sc glob r sv pm pr Hp). unfold fbody_res in HM.
    destruct (fbody_of false sc glob s r pr) as [[[x r'] l] v]. destruct HM as (A1 & A2 & A3). cbn [fst fr_exc fr_env fr_log] in *.
    rewrite fexec_l_single. repeat split; try assumption.
    + destruct x; [rewrite app_nil_r; exact A3|]. rewrite fl_app, A3, fl_single.
      destruct (orb_false_elim _ _ (Hx eq_refl)) as [-> _]. rewrite app_nil_r. reflexivity.
    + intros Hw ->. rewrite (Hx eq_refl) in Hw. discriminate Hw.
Qed.

Lemma fassemble s : fmain_ok s -> floud_ok s.
Proof.
  intros HM Hs m sc glob r sv pre pre' Hp. rewrite (fis_unfold m s), fref_unfold. unfold fstmt_wrap. cbv zeta. cbn [fsay].
  assert (HO : forall pm, fl pm = fl (pre' ++ [fbst s]) -> fown_concl s m sc glob r (pre' ++ [fbst s]) (X_l sc glob (fown_of m s) r sv pm))
    by (intros; apply fown_ok; assumption).
  unfold fown_concl in HO. destruct (fbody_of false sc glob s r (pre' ++ [fbst s])) as [[[x r'] l] v]. cbv zeta in HO.
  set (av := if m then v else VNone) in *. set (la := match x with None => [(E_after_stmt, fid s, Some av)] | Some _ => [] end) in *.
  (* under the before_stmt test *)
  assert (HE : let E := X_l sc glob (if sub c E_before_stmt then [FBefore (fid s) (fthunk_branch m s) (fown_of m s)] else fown_of m s) r sv pre in
               f_exc E = x /\ f_env E = r' /\ fl (f_log E) = fl ([fbst s] ++ l ++ la) /\ (fwants m = true -> x = None -> f_saved E = av)).
  { destruct (sub c E_before_stmt) eqn:Bf.
    - rewrite fexec_l_single, fexec_FBefore. cbv zeta.
      destruct (HO _ (fl_pre c _ _ [fbst s] [fbst s] Hp eq_refl)) as (O1 & O2 & O3 & O4).
      repeat split; try assumption. exact (fl_pre c [fbst s] [fbst s] _ _ eq_refl O3).
    - assert (Hb : fl [fbst s] = []) by (unfold fbst; rewrite fl_single, Bf; reflexivity).
      assert (Hq : fl pre = fl (pre' ++ [fbst s])) by (rewrite fl_app, Hb, app_nil_r; exact Hp).
      destruct (HO _ Hq) as (O1 & O2 & O3 & O4). repeat split; try assumption. rewrite (fl_app c [fbst s]), Hb. exact O3. }
  cbv zeta in HE. destruct HE as (E1 & E2 & E3 & E4).
  (* then the after_module_stmt emission, with the value saved *)
  destruct (m && sub c E_after_module_stmt) eqn:Am.
  - apply andb_true_iff in Am as [-> Ea].
    assert (W : fwants true = true) by (unfold fwants; rewrite Ea; apply orb_true_r).
    rewrite fexec_l_app. unfold fseq. rewrite E1. subst la. destruct x as [e|].
    + repeat split; assumption.
    + rewrite fexec_l_single. repeat split; try assumption. cbn [FragFun.fexec_s f_log fr_log]. rewrite (E4 W eq_refl), fl_app, E3, <- fl_app.
      f_equal. cbn [app]. rewrite <- app_assoc. reflexivity.
  - repeat split; try assumption. cbn [fr_log]. rewrite E3. subst la. destruct x as [e|]; [reflexivity|].
    destruct m; [|reflexivity]. cbn [andb] in Am. rewrite !fl_app, !fl_cons, Am. reflexivity.
Qed.

Theorem floud_stmt : forall s, floud_ok s.
Proof.
  intros s Hs. generalize Hs. revert s Hs. refine (fsrc_t_ind _ (fsrc_b_ind _ _ _ _ _ _) _).
  - intros n v Hs. apply fassemble. intros sc glob r sv pm pr Hp. unfold fbody_res. cbn [fmain_of fmain fbody_of FragFun.fexec_s fid fsay].
    apply rhs_wrapped; [exact Hs|exact Hp|]. intros q sv' l l' Hl. repeat split. exact Hl.
  - intros n xs v Hs. apply fassemble. intros sc glob r sv pm pr Hp. unfold fbody_res. cbn [fmain_of fmain fbody_of FragFun.fexec_s fid fsay].
    apply rhs_framed; [exact Hs|exact Hp|]. intros [x|e] sv' l l' Hl; repeat split; exact Hl.
  - intros n. apply fassemble. repeat split.
  - intros n t b o Ht Hb Ho Fb Fo. apply fassemble. intros sc glob r sv pm pr Hp.
    unfold fbody_res. cbn [fmain_of fmain fbody_of fid fsay]. rewrite fexec_FIf, eval_wrap, (eval_ie _ _ _ _ _ _ c t Ht).
    destruct (ref_e t (look sc glob r)) as [[vt|e] l]; cbn [fst snd];
      [|repeat split; destruct (sub c E_after_if_test); rewrite app_nil_r; apply fl_idem].
    assert (Hl : fl (fl l ++ (if sub c E_after_if_test then emitted E_after_if_test n (Ok vt) else [])) = fl (l ++ [(E_after_if_test, n, Some vt)]))
      by (cbn [emitted]; rewrite !fl_app, fl_idem, fl_gated, fl_single; reflexivity).
    apply fsim_pre; [exact Hl|]. assert (Hq := fl_pre c _ _ _ _ Hp Hl). destruct (truth vt); apply floud_list; auto using fsrc_b_t.
  - intros n [v|] Hs; apply fassemble; intros sc glob r sv pm pr Hp; [|repeat split].
    unfold fbody_res. cbn [fmain_of fmain fbody_of FragFun.fexec_s fid fsay]. apply rhs_framed; [exact Hs|exact Hp|]. intros q sv' l l' Hl. repeat split. exact Hl.
  - intros n name ps body. apply fassemble. repeat split.
Qed.

Definition with_after (f : N) (body : list fstmt) : list fstmt :=
  if sub c E_after_function_execution
  then [FTry (flat_map (fis c ge false) body) [FEmit E_after_function_execution f None (Some (if ge then Some f else None))]]
  else flat_map (fis c ge false) body.
Definition instr_body (f : N) (body : list fstmt) : list fstmt :=
  [FNameTry
     (if ge then [FGuardIf f (if sub c E_before_function_body then Some f else None) (with_after f body) body]
      else (if sub c E_before_function_body then [FEmit E_before_function_body f (Some (RExp (XConst 0 (SBool true)))) None] else []) ++ with_after f body)
     body].
Definition efb (f : N) : entry := (E_before_function_body, f, Some (cval (SBool true))).
Definition eafe (f : N) : entry := (E_after_function_execution, f, Some VNone).

Lemma assigned_nametry b p : assigned (FNameTry b p) = flat_map assigned p.
Proof. induction p as [|x p IH]; [reflexivity|]. cbn [assigned flat_map] in *. rewrite IH. reflexivity. Qed.
Lemma assigned_instr_body f body : assigned_l (instr_body f body) = assigned_l body.
Proof. unfold assigned_l, instr_body. cbn [flat_map]. rewrite assigned_nametry, app_nil_r. reflexivity. Qed.

Lemma body_sim f body sc glob r sv p p' : fl p = fl p' -> forallb fsrc_b body = true ->
  let loud := negb ge || fgon p' f in
  let lb := if loud then [efb f] else [] in
  let A := X_l sc glob (instr_body f body) r sv p in
  let B := R_l (negb loud) false sc glob body r (p' ++ lb) in
  f_exc A = fr_exc B /\ fl (f_log A) = fl (lb ++ fr_log B ++ (if loud then [eafe f] else [])).
Proof.
  intros Hp Hb. cbv zeta. unfold instr_body. rewrite fexec_l_single, fexec_FNameTry.
  (* the instrumented copy, entered after before_function_body (delivered if subscribed) has run; after_function_execution closes it *)
  assert (HL : forall sv q x l, fl q = fl (p' ++ [efb f]) -> x = f_exc (X_l sc glob (with_after f body) r sv q) ->
            fl l = fl [efb f] ++ fl (f_log (X_l sc glob (with_after f body) r sv q)) ->
            x = fr_exc (R_l false false sc glob body r (p' ++ [efb f])) /\
            fl l = fl ([efb f] ++ fr_log (R_l false false sc glob body r (p' ++ [efb f])) ++ [eafe f])).
  { intros sv0 q x l Hq -> ->. rewrite (fl_app c [efb f]), (fl_app c (fr_log _)).
    destruct (floud_list body (Forall_all _ floud_stmt _) (fsrc_b_t body Hb) false sc glob r sv0 q _ Hq) as (E1 & _ & E3).
    unfold with_after. destruct (sub c E_after_function_execution) eqn:Ea.
    - rewrite fexec_l_single, fexec_FTry. cbv zeta. rewrite fexec_l_single. cbn [FragFun.fexec_s f_exc f_env f_saved f_log].
      split; [exact E1|]. rewrite fl_app, E3. reflexivity.
    - split; [exact E1|]. rewrite E3. unfold eafe. rewrite fl_single, Ea, app_nil_r. reflexivity. }
  assert (Hon : fl (p ++ [efb f]) = fl (p' ++ [efb f])) by (apply fl_pre; [exact Hp|reflexivity]).
  assert (Hoff : sub c E_before_function_body = false -> fl [efb f] = [] /\ fl p = fl (p' ++ [efb f])).
  { intros Eb. assert (H0 : fl [efb f] = []) by (unfold efb; rewrite fl_single, Eb; reflexivity). rewrite fl_app, H0, app_nil_r. split; [reflexivity|exact Hp]. }
  destruct ge; cbn [negb orb].
  - (* global guards: the guard decides *)
    rewrite fexec_l_single, fexec_FGuardIf, (fgon_fl p p' f Hp). destruct (fgon p' f); cbn [negb].
    + destruct (sub c E_before_function_body) eqn:Eb.
      * eapply (HL _ _ _ _ Hon); [reflexivity|apply (fl_app c [efb f])].
      * destruct (Hoff eq_refl) as [H0 Hq]. eapply (HL _ _ _ _ Hq); [reflexivity|rewrite H0; reflexivity].
    + rewrite app_nil_r. destruct (fquiet_list body (Forall_all _ fquiet_stmt _) Hb sc glob r sv p p' Hp) as (E1 & _ & E3).
      split; [exact E1|]. cbn [app]. rewrite app_nil_r. exact E3.
  - (* no global guards: always instrumented *)
    destruct (sub c E_before_function_body) eqn:Eb; cbn [app].
    + rewrite fexec_l_cons. unfold fseq. cbn [FragFun.fexec_s FragFun.eval_r FragSem.eval_e rr_of f_exc f_env f_saved f_log app].
      eapply (HL _ _ _ _ Hon); [reflexivity|apply (fl_app c [efb f])].
    + destruct (Hoff eq_refl) as [H0 Hq]. eapply (HL _ _ _ _ Hq); [reflexivity|rewrite H0; reflexivity].
Qed.

Lemma fmodule_run m r sv : forallb fsrc_t m = true ->
  let b := R_l false true None (fun _ => None) m r [(E_init_module, 0, Some VNone)] in
  fsim (X_l None (fun _ => None) (finstr_module0 c ge m) r sv [])
       {| fr_exc := fr_exc b; fr_env := fr_env b;
          fr_log := (E_init_module, 0, Some VNone) :: fr_log b ++ match fr_exc b with None => [(E_exit_module, 0, Some VNone)] | Some _ => [] end |}.
Proof.
  intros Hs. unfold finstr_module0. set (g0 := fun _ : N => @None val).
  (* the body and exit_module, from any two starts that agree *)
  assert (HX : forall sv p p', fl p = fl p' ->
            let b := R_l false true None g0 m r p' in
            fsim (X_l None g0 (flat_map (fis c ge true) m ++ (if sub c E_exit_module then [FEmit E_exit_module 0 None None] else [])) r sv p)
                 {| fr_exc := fr_exc b; fr_env := fr_env b;
                    fr_log := fr_log b ++ match fr_exc b with None => [(E_exit_module, 0, Some VNone)] | Some _ => [] end |}).
  { intros sv0 p p' Hp b.
    destruct (floud_list m (Forall_all _ floud_stmt _) Hs true None g0 r sv0 p p' Hp) as (B1 & B2 & B3).
    fold b in B1, B2, B3. rewrite fexec_l_app. unfold fseq. rewrite B1. destruct (fr_exc b).
    - rewrite app_nil_r. repeat split; assumption.
    - destruct (sub c E_exit_module) eqn:Xm; cbn [FragFun.fexec_l FragFun.fexec_s fseq f_exc f_env f_log app]; repeat split; try assumption;
        cbn [f_log fr_log]; rewrite ?fl_app, ?B3, ?fl_single, ?Xm, ?fl_nil, ?app_nil_r; reflexivity. }
  (* init_module first *)
  destruct (sub c E_init_module) eqn:Im; cbn [app].
  - rewrite fexec_l_cons. unfold fseq. cbn [FragFun.fexec_s f_exc f_env f_saved f_log app].
    exact (fsim_pre [(E_init_module, 0, Some VNone)] [(E_init_module, 0, Some VNone)] _ _ eq_refl (HX _ _ _ eq_refl)).
  - assert (H0 : fl [] = fl [(E_init_module, 0, Some VNone)]) by (rewrite fl_single, Im; reflexivity).
    destruct (HX sv [] _ H0) as (X1 & X2 & X3). repeat split; try assumption. cbn [fr_log]. rewrite fl_cons, Im. exact X3.
Qed.
End WithCalls.

Definition itab (ftab : N -> option (list N * list fstmt)) : N -> option (list N * list fstmt) :=
  fun f => match ftab f with Some (ps, body) => Some (ps, instr_body f body) | None => None end.
Definition tab_ok (ftab : N -> option (list N * list fstmt)) : Prop := forall f ps body, ftab f = Some (ps, body) -> forallb fsrc_b body = true.

Lemma call_step tabi ftab call callr : (forall f, tabi f = itab ftab f) -> tab_ok ftab -> call_sim call callr ->
  call_sim (do_call binop cmpop unop truth cval is_and c pol tabi call) (do_callr binop cmpop unop truth cval is_and c pol ge ftab callr).
Proof.
  intros Hi Ht Hc f vs glob sv p p' Hp. unfold do_call, do_callr. rewrite Hi. unfold itab.
  destruct (ftab f) as [[ps body]|] eqn:Ef; [|split; reflexivity].
  destruct (Nat.eqb (length ps) (length vs)); [|split; reflexivity].
  rewrite assigned_instr_body.
  destruct (body_sim call callr Hc f body (Some (ps ++ assigned_l body)) glob (bind ps vs (fun _ => None)) sv p p' Hp (Ht f ps body Ef)) as [B1 B2].
  split; [cbn [fst]; rewrite B1; reflexivity|exact B2].
Qed.

Theorem calls_agree tabi ftab : (forall f, tabi f = itab ftab f) -> tab_ok ftab -> forall d,
  call_sim (fcall binop cmpop unop truth cval is_and c pol tabi d) (fcallr binop cmpop unop truth cval is_and c pol ge ftab d).
Proof.
  intros Hi Ht. induction d as [|d IH].
  - intros f vs glob sv p p' _. split; reflexivity.
  - cbn [fcall fcallr]. apply call_step; assumption.
Qed.

Lemma defs_of_app u w n : defs_of (u ++ w) n = match defs_of u n with Some d => Some d | None => defs_of w n end.
Proof. induction u as [|x u IH]; [reflexivity|]. cbn [app defs_of]. destruct (find_def n x); [reflexivity|exact IH]. Qed.

Lemma find_def_before n k tb own : find_def n (FBefore k tb own) = defs_of own n.
Proof. induction own as [|x own IH]; [reflexivity|]. cbn [find_def defs_of] in *. rewrite IH. reflexivity. Qed.

Lemma defs_fis s n : fsrc_t s = true ->
  defs_of (fis c ge true s) n = match find_def n s with Some (ps, body) => Some (ps, instr_body n body) | None => None end.
Proof.
  intros Hs. rewrite fis_unfold.
  assert (HW : defs_of (fstmt_wrap true s (fown_of true s)) n = defs_of (fown_of true s) n).
  { unfold fstmt_wrap. destruct (true && _); rewrite ?defs_of_app; destruct (sub c E_before_stmt); cbn [defs_of]; rewrite ?find_def_before;
      destruct (defs_of (fown_of true s) n); reflexivity. }
  rewrite HW, fown_of_eq. unfold fmain_and_after.
  destruct s as [k v|k xs v|k|k t b o|k v|k name ps body| | | | |]; try discriminate Hs; cbn [f_is_expr andb fafter fmain_of fmain].
  - destruct (fwants true); reflexivity.
  - destruct (fwants true); reflexivity.
  - destruct (fwants true); reflexivity.
  - destruct (fwants true); reflexivity.
  - destruct v; reflexivity.
  - destruct (fwants true); cbn [defs_of find_def]; destruct (N.eqb_spec k n) as [->|Hne]; reflexivity.
Qed.

Lemma defs_flat m n : forallb fsrc_t m = true ->
  defs_of (flat_map (fis c ge true) m) n = itab (defs_of m) n.
Proof.
  induction m as [|s m IH]; intros Hs; [reflexivity|]. unfold itab.
  cbn [forallb] in Hs. apply andb_true_iff in Hs as [Hs Hm]. cbn [flat_map defs_of]. rewrite defs_of_app, (defs_fis s n Hs), (IH Hm).
  destruct (find_def n s) as [[ps body]|]; reflexivity.
Qed.

Lemma defs_instr m : forallb fsrc_t m = true -> forall n, defs_of (finstr_module0 c ge m) n = itab (defs_of m) n.
Proof.
  intros Hs n. unfold finstr_module0. rewrite !defs_of_app, (defs_flat m n Hs). unfold itab.
  destruct (sub c E_init_module); cbn [defs_of find_def]; destruct (defs_of m n) as [[ps body]|]; try reflexivity;
    destruct (sub c E_exit_module); reflexivity.
Qed.

Lemma find_def_src s n ps body : fsrc_t s = true -> find_def n s = Some (ps, body) -> forallb fsrc_b body = true.
Proof.
  intros Hs H. destruct s as [| | | | |k name ps' body'| | | | |]; try discriminate H; try discriminate Hs.
  cbn [find_def] in H. destruct (N.eqb k n); [|discriminate H]. injection H as <- <-. exact Hs.
Qed.
Lemma defs_src m : forallb fsrc_t m = true -> tab_ok (defs_of m).
Proof.
  induction m as [|s m IH]; intros Hs f ps body H; [discriminate H|].
  cbn [forallb] in Hs. apply andb_true_iff in Hs as [Hs Hm]. cbn [defs_of] in H.
  destruct (find_def f s) as [d|] eqn:Ef.
  - injection H as ->. exact (find_def_src s f ps body Hs Ef).
  - exact (IH Hm f ps body H).
Qed.

(* the module docstring: as written, first, silent; it defines no function *)
Lemma frest_src m : forallb fsrc_t m = true -> forallb fsrc_t (frest m) = true.
Proof.
  destruct m as [|d rest]; [reflexivity|]. unfold frest. destruct (is_docstring d); [|auto].
  cbn [forallb]. intros H. now apply andb_true_iff in H as [_ H].
Qed.
Lemma fdoc_frest m : fdoc m ++ frest m = m.
Proof. destruct m as [|d rest]; [reflexivity|]. unfold fdoc, frest. now destruct (is_docstring d). Qed.
Lemma frun_doc cc pp dd u d r sv : is_docstring dd = true ->
  f_exc (frun binop cmpop unop truth cval is_and cc pp d (dd :: u) r sv) = f_exc (frun binop cmpop unop truth cval is_and cc pp d u r sv) /\
  f_env (frun binop cmpop unop truth cval is_and cc pp d (dd :: u) r sv) = f_env (frun binop cmpop unop truth cval is_and cc pp d u r sv) /\
  f_log (frun binop cmpop unop truth cval is_and cc pp d (dd :: u) r sv) = f_log (frun binop cmpop unop truth cval is_and cc pp d u r sv).
Proof.
  destruct dd as [n v| | | | | | | | | |]; try discriminate. destruct v as [v| | |]; try discriminate.
  destruct v as [|m sc| | | | | | | | | | |]; try discriminate. destruct sc; try discriminate. intros _.
  unfold frun. change (defs_of (FExpr n (RExp (XConst m (SStr s))) :: u)) with (fun k => defs_of u k).
  cbn [FragFun.fexec_l]. unfold fseq. cbn [FragFun.fexec_s FragFun.eval_r FragSem.eval_e fexc_of f_exc f_env f_saved f_log app].
  repeat split; reflexivity.
Qed.
Theorem fmodule_sim m : forallb fsrc_t m = true -> forall d r sv,
  fsim (frun binop cmpop unop truth cval is_and c pol d (finstr_module c ge m) r sv)
       (fref_module binop cmpop unop truth cval is_and c pol ge d m r).
Proof.
  intros Hs d r sv. unfold finstr_module, FragFun.fref_module.
  pose proof (frest_src m Hs) as Hr. pose proof (fmodule_run _ _ (calls_agree _ _ (defs_instr _ Hr) (defs_src _ Hr) d) _ r sv Hr) as M.
  destruct m as [|dd rest]; [exact M|]. unfold fdoc, frest in *. destruct (is_docstring dd) eqn:Ed; [|exact M].
  cbn [app]. destruct (frun_doc c pol dd (finstr_module0 c ge rest) d r sv Ed) as (E1 & E2 & E3).
  destruct M as (M1 & M2 & M3). unfold fsim. rewrite E1, E2, E3. repeat split; assumption.
Qed.

(* the source program as it is (no rewriting at all) computes the reference results *)
Definition call_res (call : callT) (callr : callR) : Prop :=
  forall f vs glob sv p p', fst (fst (call f vs glob sv p)) = fst (callr f vs glob p').

Lemma ref_args_fst q1 q2 args lk : fst (ref_args q1 args lk) = fst (ref_args q2 args lk).
Proof.
  induction args as [|a rest IH]; [reflexivity|]. cbn [FragFun.ref_args].
  destruct (ref_e a lk) as [[v|e] l]; [|reflexivity].
  destruct (ref_args q1 rest lk) as [[vs1|e1] l1], (ref_args q2 rest lk) as [[vs2|e2] l2]; cbn [fst] in *; congruence.
Qed.

Variable c0 : rcfg.                                (* whatever the run of the untouched source is given: it tests no guard *)
Variable pol0 : list entry -> N -> bool.

Section Plain.
Variable call : callT.
Variable callr : callR.
Hypothesis call_ok : call_res call callr.
Notation X_s := (FragFun.fexec_s binop cmpop unop truth cval is_and c0 pol0 call).
Notation X_l := (FragFun.fexec_l binop cmpop unop truth cval is_and c0 pol0 call).
Notation R_s := (fref_s callr).
Notation R_l := (fref_l callr).

Lemma rhs_plain r : src_r r = true -> forall q lk glob sv p p',
  fst (fst (eval_r call lk glob r sv p)) = fst (ref_r callr q lk glob r p').
Proof.
  revert r. refine (src_r_case _ _ _).
  - intros v Hs q lk glob sv p p'. cbn [FragFun.eval_r FragFun.ref_r]. rewrite (eval_src v lk Hs). destruct (ref_e v lk) as [x l]. reflexivity.
  - intros cn nf f args Ha q lk glob sv p p'.
    cbn [FragFun.eval_r FragFun.ref_r]. rewrite (eval_src (XName nf f) lk eq_refl).
    rewrite (proj1 (args_quiet args lk Ha)), (ref_args_fst true q args lk).
    destruct (ref_e (XName nf f) lk) as [[vf|e] lf]; cbn [fst snd]; [|reflexivity].
    destruct (ref_args q args lk) as [[vs|e] la]; cbn [fst snd]; [|reflexivity].
    rewrite !vkind_match. destruct (vkind vf) as [[g|k]|]; try reflexivity.
    match goal with |- context [callr g vs glob ?P'] => pose proof (call_ok g vs glob sv (p ++ [] ++ [] ++ []) P') as C1 end.
    destruct (call g vs glob sv _) as [[x sv'] lc], (callr g vs glob _) as [x' lc']. exact C1.
Qed.

Lemma rhs_plain_elim (G : rr * val * list entry -> rr * list entry -> Prop) v q lk glob sv p p' : src_r v = true ->
  (forall x sv' l l', G (x, sv', l) (x, l')) -> G (eval_r call lk glob v sv p) (ref_r callr q lk glob v p').
Proof.
  intros Hs K. pose proof (rhs_plain v Hs q lk glob sv p p') as E.
  destruct (eval_r call lk glob v sv p) as [[x sv'] l], (ref_r callr q lk glob v p') as [x' l']. cbn [fst] in E. subst x'. apply K.
Qed.

Definition fres_eq (a : fres) (b : frres) : Prop := f_exc a = fr_exc b /\ f_env a = fr_env b.

Lemma fres_eq_seq a b k kr p p' : fres_eq a b -> (forall r sv q q', fres_eq (k r sv q) (kr r q')) -> fres_eq (fseq a k p) (frseq b kr p').
Proof.
  intros H Hk. pose proof H as (E1 & E2). unfold fseq, frseq. rewrite E1, <- E2. destruct (fr_exc b); [exact H|]. apply Hk.
Qed.

Definition fplain_ok (s : fstmt) : Prop := fsrc_t s = true -> forall q sc glob r sv p p',
  fres_eq (X_s sc glob s r sv p) (fbody_res callr q sc glob s r p').

Lemma fplain_list u : Forall fplain_ok u -> forallb fsrc_t u = true ->
  forall q m sc glob r sv p p', fres_eq (X_l sc glob u r sv p) (R_l q m sc glob u r p').
Proof.
  induction 1 as [|x u Hx _ IH]; intros Hs q m sc glob r sv p p'; [split; reflexivity|]. cbn [forallb] in Hs. apply andb_true_iff in Hs as [Hsx Hs].
  rewrite fexec_l_cons, fref_l_cons, fref_unfold. apply fres_eq_seq; [|intros; apply IH; exact Hs].
  specialize (Hx Hsx q sc glob r sv p (p' ++ fsay q [fbst x])). unfold fbody_res in Hx. destruct (fbody_of callr q sc glob x r _) as [[[e r'] l] v]. exact Hx.
Qed.

Theorem fplain_stmt : forall s, fplain_ok s.
Proof.
  intros s Hs. generalize Hs. revert s Hs. refine (fsrc_t_ind _ (fsrc_b_ind _ _ _ _ _ _) _).
  - intros n v Hs _ q sc glob r sv pa pb. unfold fbody_res. cbn [fbody_of FragFun.fexec_s].
    apply rhs_plain_elim; [exact Hs|]. intros. split; reflexivity.
  - intros n xs v Hs _ q sc glob r sv pa pb. unfold fbody_res. cbn [fbody_of FragFun.fexec_s].
    apply rhs_plain_elim; [exact Hs|]. intros [x|e] sv' l l'; split; reflexivity.
  - split; reflexivity.
  - intros n t b o Ht Hb Ho Fb Fo _ q sc glob r sv pa pb. unfold fbody_res. cbn [fbody_of].
    rewrite fexec_FIf, (eval_src t _ Ht). destruct (ref_e t (look sc glob r)) as [[vt|e] l]; cbn [fst snd]; [|split; reflexivity].
    destruct (truth vt); [apply (fplain_list b Fb (fsrc_b_t b Hb))|apply (fplain_list o Fo (fsrc_b_t o Ho))].
  - intros n [v|] Hs _ q sc glob r sv pa pb; [|split; reflexivity]. unfold fbody_res. cbn [fbody_of FragFun.fexec_s].
    apply rhs_plain_elim; [exact Hs|]. intros. split; reflexivity.
  - split; reflexivity.
Qed.
End Plain.

Lemma plain_step ftab call callr : tab_ok ftab -> call_res call callr ->
  call_res (do_call binop cmpop unop truth cval is_and c0 pol0 ftab call) (do_callr binop cmpop unop truth cval is_and c pol ge ftab callr).
Proof.
  intros Ht Hc f vs glob sv p p'. unfold do_call, do_callr.
  destruct (ftab f) as [[ps body]|] eqn:Ef; [|reflexivity].
  destruct (Nat.eqb (length ps) (length vs)); [|reflexivity]. cbn [fst snd].
  f_equal. refine (proj1 (fplain_list call callr body (Forall_all _ (fplain_stmt call callr Hc) _) (fsrc_b_t body (Ht f ps body Ef)) _ _ _ _ _ _ _ _)).
Qed.

Theorem plain_calls ftab : tab_ok ftab -> forall d,
  call_res (fcall binop cmpop unop truth cval is_and c0 pol0 ftab d) (fcallr binop cmpop unop truth cval is_and c pol ge ftab d).
Proof.
  intros Ht. induction d as [|d IH].
  - intros f vs glob sv p p'. reflexivity.
  - cbn [fcall fcallr]. apply plain_step; assumption.
Qed.

Theorem fplain_module m : forallb fsrc_t m = true -> forall d r sv,
  fres_eq (frun binop cmpop unop truth cval is_and c0 pol0 d m r sv) (fref_module binop cmpop unop truth cval is_and c pol ge d m r).
Proof.
  intros Hs d r sv. unfold FragFun.fref_module.
  pose proof (frest_src m Hs) as Hr.
  pose proof (fplain_list _ _ _ (Forall_all _ (fplain_stmt _ _ (plain_calls _ (defs_src _ Hr) d)) _) Hr false true None (fun _ => None) r sv [] [(E_init_module, 0, Some VNone)]) as M.
  destruct m as [|dd rest]; [exact M|]. unfold frest in *. destruct (is_docstring dd) eqn:Ed; [|exact M].
  destruct (frun_doc c0 pol0 dd rest d r sv Ed) as (E1 & E2 & _). destruct M as (M1 & M2). unfold fres_eq. rewrite E1, E2. split; assumption.
Qed.

(* scoping: the instrumented copy of a body assigns no name the pristine copy does not assign
   (so reading a function's local names off the pristine copy kept in the `except NameError` handler, as model/FragFun.v and model/FragProg.v do, gives
   the set Python's compiler computes for the whole rewritten definition) *)
Lemma assigned_FIf n t b o : assigned (FIf n t b o) = flat_map assigned b ++ flat_map assigned o.
Proof. exact eq_refl. Qed.
Lemma assigned_FBefore n tb own : assigned (FBefore n tb own) = flat_map assigned tb ++ flat_map assigned own.
Proof. exact eq_refl. Qed.

Definition asg_ok (s : fstmt) : Prop := fsrc_t s = true -> forall m x, In x (flat_map assigned (fis c ge m s)) -> In x (assigned s).

Lemma asg_list u : Forall asg_ok u -> forallb fsrc_t u = true ->
  forall m, incl (flat_map assigned (flat_map (fis c ge m) u)) (flat_map assigned u).
Proof.
  induction 1 as [|s u Hs _ IH]; intros Hu m; [apply incl_refl|]. cbn [forallb] in Hu. apply andb_true_iff in Hu as [Hsx Hu].
  cbn [flat_map]. rewrite flat_map_app. apply incl_app_app; [exact (Hs Hsx m)|exact (IH Hu m)].
Qed.

Lemma asg_assemble s : incl (assigned (fmain_of s)) (assigned s) -> forall m, incl (flat_map assigned (fis c ge m s)) (assigned s).
Proof.
  intros HM m. rewrite fis_unfold. unfold fstmt_wrap. cbv zeta.
  assert (HO : incl (flat_map assigned (fown_of m s)) (assigned s)).
  { rewrite fown_of_eq. unfold fmain_and_after. destruct (fafter m s); [destruct (f_is_expr s && m)|]; cbn [flat_map assigned app]; rewrite ?app_nil_r;
      [apply incl_nil_l|exact HM..]. }
  assert (HE : incl (flat_map assigned (if sub c E_before_stmt then [FBefore (fid s) (fthunk_branch m s) (fown_of m s)] else fown_of m s)) (assigned s)).
  { destruct (sub c E_before_stmt); [|exact HO]. cbn [flat_map]. rewrite assigned_FBefore, app_nil_r. apply incl_app; [|exact HO].
    unfold fthunk_branch, fmain_and_after. destruct (fwants m); [destruct m|]; apply incl_nil_l. }
  destruct (m && sub c E_after_module_stmt); [|exact HE]. rewrite flat_map_app. apply incl_app; [exact HE|apply incl_nil_l].
Qed.

Theorem assigned_fis : forall s, asg_ok s.
Proof.
  intros s Hs. generalize Hs. revert s Hs. refine (fsrc_t_ind _ (fsrc_b_ind _ _ _ _ _ _) _); intros until m; apply asg_assemble; try apply incl_refl.
  - cbn [fmain_of fmain]. rewrite !assigned_FIf. apply incl_app_app; apply asg_list; auto using fsrc_b_t.
  - destruct r; apply incl_refl.
Qed.

Corollary assigned_instr_sub body : forallb fsrc_b body = true -> forall x, In x (assigned_l (flat_map (fis c ge false) body)) -> In x (assigned_l body).
Proof. intros Hb. exact (asg_list body (Forall_all _ assigned_fis _) (fsrc_b_t body Hb) false). Qed.
End FunProofs.

Section FinalFun.
Notation X := (frun binop cmpop unop truth cval is_and).
Notation RM := (fref_module binop cmpop unop truth cval is_and).

(* the instrumented program, whatever is subscribed and however the function guards are flipped, computes what the untouched source computes *)
Theorem fun_plain c ge pol c0 pol0 m d r sv sv' : forallb fsrc_t m = true ->
  f_exc (X c pol d (finstr_module c ge m) r sv) = f_exc (X c0 pol0 d m r sv') /\
  f_env (X c pol d (finstr_module c ge m) r sv) = f_env (X c0 pol0 d m r sv').
Proof.
  intros Hs. destruct (fmodule_sim c pol ge m Hs d r sv) as (A1 & A2 & _).
  destruct (fplain_module c pol ge c0 pol0 m Hs d r sv') as (B1 & B2).
  rewrite A1, A2, B1, B2. split; reflexivity.
Qed.

Theorem fun_results c1 ge1 pol1 c2 ge2 pol2 m d r sv sv' : forallb fsrc_t m = true ->
  f_exc (X c1 pol1 d (finstr_module c1 ge1 m) r sv) = f_exc (X c2 pol2 d (finstr_module c2 ge2 m) r sv') /\
  f_env (X c1 pol1 d (finstr_module c1 ge1 m) r sv) = f_env (X c2 pol2 d (finstr_module c2 ge2 m) r sv').
Proof.
  intros Hs. destruct (fun_plain c1 ge1 pol1 c1 pol1 m d r sv sv Hs) as (A1 & A2). destruct (fun_plain c2 ge2 pol2 c1 pol1 m d r sv' sv Hs) as (B1 & B2).
  rewrite A1, A2, B1, B2. split; reflexivity.
Qed.

(* ... and delivers the reference stream: every event of the fragment once per dynamic occurrence, in evaluation order, gated by the function guards *)
Theorem fun_stream c ge pol m d r sv : forallb fsrc_t m = true ->
  filter_log c (f_log (X c pol d (finstr_module c ge m) r sv)) = filter_log c (fr_log (RM c pol ge d m r)).
Proof. intros Hs. exact (proj2 (proj2 (fmodule_sim c pol ge m Hs d r sv))). Qed.
End FinalFun.
End Fun.
