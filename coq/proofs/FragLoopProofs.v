(* Proofs about model/FragLoop.v: while loops and guards on the fragment - the instrumented program under ANY guard schedule against the gated reference *)
From Coq Require Import List NArith Bool.
Import ListNotations.
From PyccoloV Require Import gen.Events model.Tree model.RwFrag model.FragSem proofs.FragSemProofs model.FragLoop proofs.ListFacts proofs.FragLog.
Local Open Scope N_scope.

Fixpoint lsrc_s (s : lstmt) : bool :=
  match s with
  | LExpr _ v | LAssign _ _ v => src_e v
  | LPass _ | LBreak _ | LContinue _ => true
  | LIf _ t b o | LWhile _ t b o => src_e t && forallb lsrc_s b && forallb lsrc_s o
  | _ => false
  end.

Section IndL.
Variable P : lstmt -> Prop.
Hypothesis HExpr : forall n v, P (LExpr n v).
Hypothesis HAssign : forall n xs v, P (LAssign n xs v).
Hypothesis HPass : forall n, P (LPass n).
Hypothesis HIf : forall n t b o, Forall P b -> Forall P o -> P (LIf n t b o).
Hypothesis HWhile : forall n t b o, Forall P b -> Forall P o -> P (LWhile n t b o).
Hypothesis HBreak : forall n, P (LBreak n).
Hypothesis HContinue : forall n, P (LContinue n).
Hypothesis HEmit : forall e n v g, P (LEmit e n v g).
Hypothesis HBefore : forall n tb own, P (LBefore n tb own).
Hypothesis HWhileG : forall n g t' t b o, P (LWhileG n g t' t b o).
Hypothesis HGuardIf : forall g before i p, P (LGuardIf g before i p).
Hypothesis HTry : forall b fin, P (LTry b fin).
Fixpoint lstmt_ind' (s : lstmt) : P s :=
  let fix all (l : list lstmt) : Forall P l := match l with [] => Forall_nil P | x :: l' => Forall_cons x (lstmt_ind' x) (all l') end in
  match s with
  | LExpr n v => HExpr n v
  | LAssign n xs v => HAssign n xs v
  | LPass n => HPass n
  | LIf n t b o => HIf n t b o (all b) (all o)
  | LWhile n t b o => HWhile n t b o (all b) (all o)
  | LBreak n => HBreak n
  | LContinue n => HContinue n
  | LEmit e n v g => HEmit e n v g
  | LBefore n tb own => HBefore n tb own
  | LWhileG n g t' t b o => HWhileG n g t' t b o
  | LGuardIf g before i p => HGuardIf g before i p
  | LTry b fin => HTry b fin
  end.
End IndL.

Lemma lsrc_parts t b o : src_e t && forallb lsrc_s b && forallb lsrc_s o = true ->
  src_e t = true /\ forallb lsrc_s b = true /\ forallb lsrc_s o = true.
Proof. intros H. apply andb_true_iff in H as [H Ho]. apply andb_true_iff in H as [Ht Hb]. auto. Qed.
Section LoopProofs.
Variable binop : N -> val -> val -> res val.
Variable cmpop : N -> val -> val -> res bool.
Variable unop : N -> val -> res val.
Variable truth : val -> bool.
Variable cval : scalar -> val.
Variable is_and : N -> bool.
Variable c : rcfg.
Variable pol : list entry -> guard -> bool.
Variable fuel : nat.
Variable ge : bool.

Notation eval_e := (eval_e binop cmpop unop truth cval is_and).
Notation eval_src := (FragSemProofs.eval_src binop cmpop unop truth cval is_and).
Notation ref_e := (ref_e binop cmpop unop truth cval is_and).
Notation lexec_s := (lexec_s binop cmpop unop truth cval is_and c pol fuel).
Notation lexec_l := (lexec_l binop cmpop unop truth cval is_and c pol fuel).
Notation lref_s := (lref_s binop cmpop unop truth cval is_and c pol fuel ge).
Notation lref_l := (lref_l binop cmpop unop truth cval is_and c pol fuel ge).
Notation gon := (gon c pol).

Definition lpre (l : list entry) (a : lres) : lres := {| l_exc := l_exc a; l_env := l_env a; l_saved := l_saved a; l_log := l ++ l_log a |}.
Definition rlpre (l : list entry) (b : rlres) : rlres := {| rl_exc := rl_exc b; rl_env := rl_env b; rl_log := l ++ rl_log b |}.

(* the `loop` of lexec_s with the evaluator of lists by name: the form `loop_sim` and `quiet_loop` are stated in.  It is convertible to
   the twin's loop `lloop_of`; `lloop_S` is its only equation.  Likewise `rloop` below for the loop of lref_s (`rloop_eq`, `rloop_S`;
   stated in `inv_loop`) *)
Definition lloop (test : env -> list entry -> res val * list entry) (b o : list lstmt) :=
  fix loop (f : nat) (r : env) (saved : val) (pre : list entry) {struct f} : lres :=
    match f with
    | O => {| l_exc := Some LFuel; l_env := r; l_saved := saved; l_log := [] |}
    | S f' =>
        let '(q, lt) := test r pre in
        match q with
        | Err e => {| l_exc := Some (LX e); l_env := r; l_saved := saved; l_log := lt |}
        | Ok vt =>
            if truth vt then
              let a := lexec_l b r saved (pre ++ lt) in
              match l_exc a with
              | Some LBrk => {| l_exc := None; l_env := l_env a; l_saved := l_saved a; l_log := lt ++ l_log a |}
              | None | Some LCnt =>
                  let z := loop f' (l_env a) (l_saved a) (pre ++ lt ++ l_log a) in
                  {| l_exc := l_exc z; l_env := l_env z; l_saved := l_saved z; l_log := lt ++ l_log a ++ l_log z |}
              | Some _ => {| l_exc := l_exc a; l_env := l_env a; l_saved := l_saved a; l_log := lt ++ l_log a |}
              end
            else let a := lexec_l o r saved (pre ++ lt) in
                 {| l_exc := l_exc a; l_env := l_env a; l_saved := l_saved a; l_log := lt ++ l_log a |}
        end
    end.
Definition liter (lt : list entry) (a : lres) (k : env -> val -> list entry -> lres) (pre : list entry) : lres :=
  match l_exc a with
  | Some LBrk => {| l_exc := None; l_env := l_env a; l_saved := l_saved a; l_log := lt ++ l_log a |}
  | None | Some LCnt =>
      let z := k (l_env a) (l_saved a) (pre ++ lt ++ l_log a) in
      {| l_exc := l_exc z; l_env := l_env z; l_saved := l_saved z; l_log := lt ++ l_log a ++ l_log z |}
  | Some _ => lpre lt a
  end.

(* a twin of `lexec_s` (see `gexec` in FragSemProofs.v); rewrite with `lexec_unfold`, `lexec_l_cons`, and for the loops `lloop_S` *)
Definition lrun (ex : lstmt -> env -> val -> list entry -> lres) :=
  fix go (u : list lstmt) (r : env) (sv : val) (pre : list entry) {struct u} : lres :=
    match u with
    | [] => {| l_exc := None; l_env := r; l_saved := sv; l_log := [] |}
    | x :: u' => lseq (ex x r sv pre) (go u') pre
    end.
Definition lstep (EL : list lstmt -> env -> val -> list entry -> lres) (test : env -> list entry -> res val * list entry) (b o : list lstmt)
    (loop : env -> val -> list entry -> lres) (r : env) (sv : val) (pre : list entry) : lres :=
  let '(q, lt) := test r pre in
  match q with
  | Err e => {| l_exc := Some (LX e); l_env := r; l_saved := sv; l_log := lt |}
  | Ok vt => if truth vt then liter lt (EL b r sv (pre ++ lt)) loop pre else lpre lt (EL o r sv (pre ++ lt))
  end.
Definition lloop_of EL test (b o : list lstmt) :=
  fix loop (f : nat) (r : env) (sv : val) (pre : list entry) {struct f} : lres :=
    match f with
    | O => {| l_exc := Some LFuel; l_env := r; l_saved := sv; l_log := [] |}
    | S f' => lstep EL test b o (loop f') r sv pre
    end.
Definition lexec_of (EL : list lstmt -> env -> val -> list entry -> lres) (s : lstmt) (r : env) (sv : val) (pre : list entry) : lres :=
  match s with
  | LExpr _ v => let '(q, l) := eval_e v r in {| l_exc := lexc_of q; l_env := r; l_saved := sv; l_log := l |}
  | LAssign _ xs v =>
      let '(q, l) := eval_e v r in
      match q with
      | Ok x => {| l_exc := None; l_env := fold_left (fun r' y => upd r' y x) xs r; l_saved := sv; l_log := l |}
      | Err e => {| l_exc := Some (LX e); l_env := r; l_saved := sv; l_log := l |}
      end
  | LPass _ => {| l_exc := None; l_env := r; l_saved := sv; l_log := [] |}
  | LIf _ t b o =>
      let '(q, l) := eval_e t r in
      match q with
      | Ok vt => lpre l (EL (if truth vt then b else o) r sv (pre ++ l))
      | Err e => {| l_exc := Some (LX e); l_env := r; l_saved := sv; l_log := l |}
      end
  | LWhile _ t b o => lloop_of EL (fun r _ => eval_e t r) b o fuel r sv pre
  | LBreak _ => {| l_exc := Some LBrk; l_env := r; l_saved := sv; l_log := [] |}
  | LContinue _ => {| l_exc := Some LCnt; l_env := r; l_saved := sv; l_log := [] |}
  | LWhileG _ g t' t b o => lloop_of EL (fun r pre => if gon pre g then eval_e t' r else eval_e t r) b o fuel r sv pre
  | LEmit e n None _ =>
      {| l_exc := None; l_env := r; l_saved := (if event_eqb e E_after_stmt then VNone else sv); l_log := [(e, n, Some VNone)] |}
  | LEmit e n (Some (XLoadSaved _)) _ => {| l_exc := None; l_env := r; l_saved := VNone; l_log := [(e, n, Some sv)] |}
  | LEmit e n (Some v) _ =>
      let '(q, l) := eval_e v r in
      match q with
      | Ok x => {| l_exc := None; l_env := r; l_saved := (if event_eqb e E_after_stmt then x else sv); l_log := l ++ [(e, n, Some x)] |}
      | Err x => {| l_exc := Some (LX x); l_env := r; l_saved := sv; l_log := l |}
      end
  | LBefore n _ own => lpre [(E_before_stmt, n, Some VNone)] (EL own r sv (pre ++ [(E_before_stmt, n, Some VNone)]))
  | LGuardIf g before i p =>
      if gon pre g then
        match before with
        | Some n => lpre [(E_before_while_loop_body, n, Some (cval (SBool true)))] (EL i r sv (pre ++ [(E_before_while_loop_body, n, Some (cval (SBool true)))]))
        | None => EL i r sv pre
        end
      else EL p r sv pre
  | LTry b fin =>
      let a := EL b r sv pre in
      let z := EL fin (l_env a) (l_saved a) (pre ++ l_log a) in
      {| l_exc := match l_exc z with Some x => Some x | None => l_exc a end; l_env := l_env z; l_saved := l_saved z; l_log := l_log a ++ l_log z |}
  end.
Fixpoint lexec' (s : lstmt) (r : env) (sv : val) (pre : list entry) {struct s} : lres := lexec_of (lrun lexec') s r sv pre.
Lemma lexec_fix : lexec_s = lexec'.
Proof. reflexivity. Qed.
Lemma lrun_eq : lexec_l = lrun lexec_s.
Proof. reflexivity. Qed.
Lemma lexec_unfold s r sv pre : lexec_s s r sv pre = lexec_of lexec_l s r sv pre.
Proof. rewrite lrun_eq, lexec_fix. destruct s; reflexivity. Qed.
Lemma lexec_l_cons x u r sv pre : lexec_l (x :: u) r sv pre = lseq (lexec_s x r sv pre) (lexec_l u) pre.
Proof. reflexivity. Qed.
Lemma lloop_S test b o f r sv pre : lloop test b o (S f) r sv pre = lstep lexec_l test b o (lloop test b o f) r sv pre.
Proof. reflexivity. Qed.
Lemma lexec_while (g : bool) n gd t' t b o r sv pre :
  lexec_s (if g then LWhileG n gd t' t b o else LWhile n t' b o) r sv pre =
  lloop (fun r pre => if g then (if gon pre gd then eval_e t' r else eval_e t r) else eval_e t' r) b o fuel r sv pre.
Proof. destruct g; rewrite lexec_unfold; reflexivity. Qed.

Definition say (quiet : bool) (l : list entry) : list entry := if quiet then [] else l.
Definition ebw (n : N) : entry := (E_before_while_loop_body, n, Some (cval (SBool true))).
Definition eaw (n : N) : entry := (E_after_while_loop_iter, n, Some VNone).
Definition rloop (quiet : bool) (n : N) (t : texpr) (b o : list lstmt) :=
  fix loop (f : nat) (r : env) (pre : list entry) {struct f} : rlres :=
    match f with
    | O => {| rl_exc := Some LFuel; rl_env := r; rl_log := [] |}
    | S f' =>
        let '(q, l) := ref_e t r in
        let loud_t := negb quiet && (negb ge || gon pre (GTest n)) in
        let lt := if loud_t then l ++ emitted E_after_while_test n q else [] in
        match q with
        | Err e => {| rl_exc := Some (LX e); rl_env := r; rl_log := lt |}
        | Ok vt =>
            if truth vt then
              let loud_b := negb quiet && (negb ge || gon (pre ++ lt) (GBody n)) in
              let lb := if loud_b then [ebw n] else [] in
              let a := lref_l (negb loud_b) false b r (pre ++ lt ++ lb) in
              let la := if loud_b then [eaw n] else [] in
              match rl_exc a with
              | Some LBrk => {| rl_exc := None; rl_env := rl_env a; rl_log := lt ++ lb ++ rl_log a ++ la |}
              | None | Some LCnt =>
                  let z := loop f' (rl_env a) (pre ++ lt ++ lb ++ rl_log a ++ la) in
                  {| rl_exc := rl_exc z; rl_env := rl_env z; rl_log := lt ++ lb ++ rl_log a ++ la ++ rl_log z |}
              | Some _ => {| rl_exc := rl_exc a; rl_env := rl_env a; rl_log := lt ++ lb ++ rl_log a ++ la |}
              end
            else let a := lref_l quiet false o r (pre ++ lt) in
                 {| rl_exc := rl_exc a; rl_env := rl_env a; rl_log := lt ++ rl_log a |}
        end
    end.

Definition riter (lt lb la : list entry) (a : rlres) (k : env -> list entry -> rlres) (pre : list entry) : rlres :=
  match rl_exc a with
  | Some LBrk => {| rl_exc := None; rl_env := rl_env a; rl_log := lt ++ lb ++ rl_log a ++ la |}
  | None | Some LCnt =>
      let z := k (rl_env a) (pre ++ lt ++ lb ++ rl_log a ++ la) in
      {| rl_exc := rl_exc z; rl_env := rl_env z; rl_log := lt ++ lb ++ rl_log a ++ la ++ rl_log z |}
  | Some _ => {| rl_exc := rl_exc a; rl_env := rl_env a; rl_log := lt ++ lb ++ rl_log a ++ la |}
  end.

(* a twin of `lref_s`: RL q is the reference for the lists inside a statement; rewrite with `lref_unfold`, `lref_l_cons`, `rloop_S` *)
Definition lrrun (ex : lstmt -> env -> list entry -> rlres) :=
  fix go (u : list lstmt) (r : env) (pre : list entry) {struct u} : rlres :=
    match u with
    | [] => {| rl_exc := None; rl_env := r; rl_log := [] |}
    | x :: u' => rseq (ex x r pre) (go u') pre
    end.
Definition rstep (RL : bool -> list lstmt -> env -> list entry -> rlres) (quiet : bool) (n : N) (t : texpr) (b o : list lstmt)
    (loop : env -> list entry -> rlres) (r : env) (pre : list entry) : rlres :=
  let '(q, l) := ref_e t r in
  let lt := if negb quiet && (negb ge || gon pre (GTest n)) then l ++ emitted E_after_while_test n q else [] in
  match q with
  | Err e => {| rl_exc := Some (LX e); rl_env := r; rl_log := lt |}
  | Ok vt =>
      if truth vt then
        let loud_b := negb quiet && (negb ge || gon (pre ++ lt) (GBody n)) in
        let lb := if loud_b then [ebw n] else [] in
        riter lt lb (if loud_b then [eaw n] else []) (RL (negb loud_b) b r (pre ++ lt ++ lb)) loop pre
      else rlpre lt (RL quiet o r (pre ++ lt))
  end.
Definition rloop_of RL (quiet : bool) (n : N) (t : texpr) (b o : list lstmt) :=
  fix loop (f : nat) (r : env) (pre : list entry) {struct f} : rlres :=
    match f with
    | O => {| rl_exc := Some LFuel; rl_env := r; rl_log := [] |}
    | S f' => rstep RL quiet n t b o (loop f') r pre
    end.
Definition lbody_of (RL : bool -> list lstmt -> env -> list entry -> rlres) (quiet : bool) (s : lstmt) (r : env) (pre : list entry) : option lexc * env * list entry * val :=
  let n := lid s in
  match s with
  | LExpr _ v => let '(q, l) := ref_e v r in (lexc_of q, r, say quiet (l ++ emitted E_after_expr_stmt n q), match q with Ok x => x | Err _ => VNone end)
  | LAssign _ xs v =>
      let '(q, l) := ref_e v r in
      (lexc_of q, match q with Ok x => fold_left (fun r' y => upd r' y x) xs r | Err _ => r end,
       say quiet ((E_before_assign_rhs, xid v, None) :: l ++ emitted E_after_assign_rhs (xid v) q), VNone)
  | LPass _ => (None, r, [], VNone)
  | LBreak _ => (Some LBrk, r, [], VNone)
  | LContinue _ => (Some LCnt, r, [], VNone)
  | LIf _ t b o =>
      let '(q, l) := ref_e t r in
      match q with
      | Ok vt => let l1 := say quiet (l ++ [(E_after_if_test, n, Some vt)]) in
                 let a := RL quiet (if truth vt then b else o) r (pre ++ say quiet [(E_before_stmt, n, Some VNone)] ++ l1) in
                 (rl_exc a, rl_env a, l1 ++ rl_log a, VNone)
      | Err e => (Some (LX e), r, say quiet l, VNone)
      end
  | LWhile _ t b o =>
      let z := rloop_of RL quiet n t b o fuel r (pre ++ say quiet [(E_before_stmt, n, Some VNone)]) in
      (rl_exc z, rl_env z, rl_log z, VNone)
  | _ => (Some (LX ETypeError), r, [], VNone)
  end.
(* what the reference puts around a statement's own events *)
Definition lframe (quiet m : bool) (n : N) (t : option lexc * env * list entry * val) : rlres :=
  let '(x, r', l, v) := t in
  let after_value := if m then v else VNone in
  {| rl_exc := x; rl_env := r';
     rl_log := say quiet [(E_before_stmt, n, Some VNone)] ++ l ++
               match x with
               | Some _ => []
               | None => say quiet ((E_after_stmt, n, Some after_value) :: (if m then [(E_after_module_stmt, n, Some after_value)] else []))
               end |}.
Fixpoint lref' (quiet m : bool) (s : lstmt) (r : env) (pre : list entry) {struct s} : rlres :=
  lframe quiet m (lid s) (lbody_of (fun q => lrrun (lref' q false)) quiet s r pre).
Lemma lref_fix : lref_s = lref'.
Proof. reflexivity. Qed.
Lemma rloop_eq quiet n t b o : rloop quiet n t b o = rloop_of (fun q => lref_l q false) quiet n t b o.
Proof. reflexivity. Qed.
Lemma lref_unfold quiet m s r pre : lref_s quiet m s r pre = lframe quiet m (lid s) (lbody_of (fun q => lref_l q false) quiet s r pre).
Proof. change (fun q => lref_l q false) with (fun q => lrrun (lref_s q false)). rewrite lref_fix. destruct s; reflexivity. Qed.
Lemma lref_l_cons quiet m x u r pre : lref_l quiet m (x :: u) r pre = rseq (lref_s quiet m x r pre) (lref_l quiet m u) pre.
Proof. reflexivity. Qed.
Lemma rloop_S quiet n t b o f r pre : rloop quiet n t b o (S f) r pre = rstep (fun q => lref_l q false) quiet n t b o (rloop quiet n t b o f) r pre.
Proof. reflexivity. Qed.
Lemma lframe_quiet m n x r' l v : lframe true m n (x, r', l, v) = {| rl_exc := x; rl_env := r'; rl_log := l |}.
Proof. unfold lframe. cbn [say app]. destruct x; rewrite app_nil_r; reflexivity. Qed.

(* the pristine copy: source semantics, nothing emitted *)
Record quiet_rel (a : lres) (b : rlres) (sv : val) : Prop := {
  q_exc : l_exc a = rl_exc b; q_env : l_env a = rl_env b; q_saved : l_saved a = sv; q_log : l_log a = []; q_rlog : rl_log b = [] }.

Definition quiet_ok (s : lstmt) : Prop := lsrc_s s = true -> forall r sv pre pre',
  quiet_rel (lexec_s (pr ge s) r sv pre) (lref_s true false s r pre') sv.

Lemma quiet_seq a b k k' p p' sv : quiet_rel a b sv -> (forall r q q', quiet_rel (k r sv q) (k' r q') sv) ->
  quiet_rel (lseq a k p) (rseq b k' p') sv.
Proof.
  intros Hab H. unfold lseq, rseq. destruct Hab as [E1 E2 E3 E4 E5]. rewrite E1, E2, E3, E4, E5.
  destruct (rl_exc b) eqn:Ex; [split; congruence|]. destruct (H (rl_env b) (p ++ []) (p' ++ [])). split; assumption.
Qed.
Lemma quiet_iter a b k k' p p' sv : quiet_rel a b sv -> (forall r q q', quiet_rel (k r sv q) (k' r q') sv) ->
  quiet_rel (liter [] a k p) (riter [] [] [] b k' p') sv.
Proof.
  intros [E1 E2 E3 E4 E5] H. unfold liter, riter. rewrite E1, E2, E3, E4, E5.
  destruct (H (rl_env b) (p ++ [] ++ []) (p' ++ [] ++ [] ++ [] ++ [])). destruct (rl_exc b) as [[| | |]|]; split; assumption || reflexivity.
Qed.
Lemma quiet_pre a b sv : quiet_rel a b sv -> quiet_rel (lpre [] a) (rlpre [] b) sv.
Proof. intros []. split; assumption. Qed.
Lemma quiet_eta a b sv : quiet_rel a b sv -> quiet_rel a {| rl_exc := rl_exc b; rl_env := rl_env b; rl_log := rl_log b |} sv.
Proof. intros []. split; assumption. Qed.

Lemma quiet_list u : Forall quiet_ok u -> forallb lsrc_s u = true -> forall r sv pre pre',
  quiet_rel (lexec_l (map (pr ge) u) r sv pre) (lref_l true false u r pre') sv.
Proof.
  induction 1 as [|x u Hx _ IH]; intros Hs r sv pre pre'; [split; reflexivity|].
  apply andb_true_iff in Hs as [Hx' Hs]. cbn [map]. rewrite lexec_l_cons, lref_l_cons.
  apply quiet_seq; [apply Hx, Hx'|intros; apply IH, Hs].
Qed.

Lemma quiet_loop n t b o test :
  (forall r pre, test r pre = (fst (ref_e t r), [])) ->
  Forall quiet_ok b -> forallb lsrc_s b = true -> Forall quiet_ok o -> forallb lsrc_s o = true ->
  forall f r sv pre pre', quiet_rel (lloop test (map (pr ge) b) (map (pr ge) o) f r sv pre) (rloop true n t b o f r pre') sv.
Proof.
  intros Htest Fb Hb Fo Ho. induction f as [|f IH]; intros r sv pre pre'; [split; reflexivity|].
  rewrite lloop_S, rloop_S. unfold lstep, rstep. rewrite Htest. destruct (ref_e t r) as [[vt|e] l]; cbn [fst negb andb]; [|split; reflexivity].
  destruct (truth vt).
  - apply quiet_iter; [apply quiet_list; assumption|intros; apply IH].
  - apply quiet_pre, quiet_list; assumption.
Qed.

Theorem quiet_stmt : forall s, quiet_ok s.
Proof.
  induction s using lstmt_ind'; intros Hs r sv pre pre'; try discriminate Hs; cbn [lsrc_s] in Hs; rewrite lref_unfold; cbn [pr lbody_of lid];
    try (split; reflexivity).
  1, 2: cbn [FragLoop.lexec_s]; rewrite (eval_src v r Hs); destruct (ref_e v r) as [[x|e] l]; split; reflexivity.
  - destruct (lsrc_parts _ _ _ Hs) as (Ht & Hb & Ho).
    rewrite lexec_unfold. cbn [lexec_of]. rewrite (eval_src t r Ht). destruct (ref_e t r) as [[vt|e] l]; cbn [fst]; rewrite lframe_quiet; [|split; reflexivity].
    cbn [say]. apply quiet_pre. destruct (truth vt); apply quiet_list; assumption.
  - destruct (lsrc_parts _ _ _ Hs) as (Ht & Hb & Ho).
    rewrite lexec_while, lframe_quiet, <- rloop_eq. apply quiet_eta, quiet_loop; [|assumption..].
    intros r0 p. rewrite (eval_src t r0 Ht). destruct ge, (gon p (GTest n)); reflexivity.
Qed.

Notation fl := (filter_log c).
Definition lsim (a : lres) (b : rlres) : Prop := l_exc a = rl_exc b /\ l_env a = rl_env b /\ fl (l_log a) = fl (rl_log b).

Lemma gon_fl p p' g : fl p = fl p' -> gon p g = gon p' g.
Proof. unfold FragLoop.gon. intros ->. reflexivity. Qed.

Lemma eval_wrap_fl e n t' r q L : eval_e t' r = (q, fl L) -> eval_e (wrap c e n t') r = (q, fl (L ++ emitted e n q)).
Proof. intros H. rewrite eval_wrap, H, fl_app, fl_emitted. reflexivity. Qed.
Lemma eval_wrap_ie e n t r : src_e t = true ->
  eval_e (wrap c e n (ie c t)) r = (fst (ref_e t r), fl (snd (ref_e t r) ++ emitted e n (fst (ref_e t r)))).
Proof. intros Hs. apply eval_wrap_fl, eval_ie, Hs. Qed.

Lemma lsim_pre l l' a b : fl l = fl l' -> lsim a b -> lsim (lpre l a) (rlpre l' b).
Proof. intros Hl (E1 & E2 & E3). repeat split; try assumption. apply fl_pre; assumption. Qed.
Lemma lsim_seq a b k k' p p' : fl p = fl p' -> lsim a b -> (forall r sv q q', fl q = fl q' -> lsim (k r sv q) (k' r q')) ->
  lsim (lseq a k p) (rseq b k' p').
Proof.
  intros Hp (E1 & E2 & E3) H. unfold lseq, rseq. rewrite E1, E2.
  destruct (rl_exc b) eqn:Ex; [repeat split; congruence|]. apply lsim_pre, H, fl_pre; assumption.
Qed.
Lemma lsim_iter LT lt lb la a b k k' p p' : fl p = fl p' -> fl LT = fl lt ->
  l_exc a = rl_exc b /\ l_env a = rl_env b /\ fl (l_log a) = fl (lb ++ rl_log b ++ la) ->
  (forall r sv q q', fl q = fl q' -> lsim (k r sv q) (k' r q')) ->
  lsim (liter LT a k p) (riter lt lb la b k' p').
Proof.
  intros Hp Ht (E1 & E2 & E3) H. unfold liter, riter. rewrite E1, E2.
  assert (Hl : fl (LT ++ l_log a) = fl (lt ++ lb ++ rl_log b ++ la)) by (apply fl_pre; assumption).
  destruct (H (rl_env b) (l_saved a) (p ++ LT ++ l_log a) (p' ++ lt ++ lb ++ rl_log b ++ la)) as (F1 & F2 & F3); [apply fl_pre; assumption|].
  assert (Hz : forall z z', fl z = fl z' -> fl (LT ++ l_log a ++ z) = fl (lt ++ lb ++ rl_log b ++ la ++ z')).
  { intros z z' Hz. rewrite (app_assoc LT), (fl_app c (LT ++ l_log a)), Hl, Hz, !fl_app, <- !app_assoc. reflexivity. }
  destruct (rl_exc b) as [[| | |]|]; unfold lsim; cbn [l_exc l_env l_log rl_exc rl_env rl_log]; auto.
Qed.

(* an event that is emitted, before K runs, when it is subscribed: to a subscriber K runs after the event either way *)
Lemma emit_before e n v (K : list entry -> lres) p p' X : fl p = fl p' ->
  X = (if sub c e then lpre [(e, n, v)] (K (p ++ [(e, n, v)])) else K p) ->
  exists q, fl q = fl (p' ++ [(e, n, v)]) /\
    l_exc X = l_exc (K q) /\ l_env X = l_env (K q) /\ l_saved X = l_saved (K q) /\ fl (l_log X) = fl ((e, n, v) :: l_log (K q)).
Proof.
  intros Hp ->. destruct (sub c e) eqn:S; [exists (p ++ [(e, n, v)])|exists p]; repeat split.
  - apply fl_pre; [exact Hp|reflexivity].
  - rewrite fl_app, fl_single, S, app_nil_r. exact Hp.
  - rewrite fl_cons, S. reflexivity.
Qed.

Definition rthen (b : rlres) (l : list entry) : rlres :=
  {| rl_exc := rl_exc b; rl_env := rl_env b; rl_log := rl_log b ++ match rl_exc b with None => l | Some _ => [] end |}.
Lemma lsim_then a b k l p : lsim a b ->
  (let z := k (l_env a) (l_saved a) (p ++ l_log a) in l_exc z = None /\ l_env z = l_env a /\ fl (l_log z) = fl l) ->
  lsim (lseq a k p) (rthen b l).
Proof.
  intros (E1 & E2 & E3) H. unfold lseq, rthen, lsim. rewrite <- E1. destruct (l_exc a) eqn:Ea; cbn [l_exc l_env l_log rl_exc rl_env rl_log].
  - rewrite app_nil_r. auto.
  - destruct H as (Z1 & Z2 & Z3). rewrite Z1, Z2, !fl_app, E3, Z3. auto.
Qed.

Lemma lexec_l_nil r sv pre : lexec_l [] r sv pre = {| l_exc := None; l_env := r; l_saved := sv; l_log := [] |}.
Proof. reflexivity. Qed.
Lemma lexec_l_single x r sv pre : lexec_l [x] r sv pre = lexec_s x r sv pre.
Proof. rewrite lexec_l_cons. unfold lseq. destruct (lexec_s x r sv pre) as [[e|] r' sv' l]; cbn; rewrite ?app_nil_r; reflexivity. Qed.
Lemma lexec_l_app u w : forall r sv pre, lexec_l (u ++ w) r sv pre = lseq (lexec_l u r sv pre) (lexec_l w) pre.
Proof.
  induction u as [|x u IH]; intros r sv pre; cbn [app].
  - unfold lseq. cbn. rewrite app_nil_r. destruct (lexec_l w r sv pre); reflexivity.
  - rewrite !lexec_l_cons. destruct (lexec_s x r sv pre) as [[e|] r1 s1 l1]; unfold lseq at 1 3; cbn [l_exc l_env l_saved l_log]; [reflexivity|].
    rewrite IH. unfold lseq. cbn [l_exc l_env l_saved l_log].
    destruct (l_exc (lexec_l u r1 s1 (pre ++ l1))) eqn:E; cbn [l_exc l_env l_saved l_log]; rewrite ?E, ?app_assoc; reflexivity.
Qed.

Definition loud_ok (s : lstmt) : Prop := lsrc_s s = true -> forall m r sv pre pre', fl pre = fl pre' ->
  lsim (lexec_l (lis c ge m s) r sv pre) (lref_s false m s r pre').

Lemma loud_list u : Forall loud_ok u -> forallb lsrc_s u = true -> forall m r sv pre pre', fl pre = fl pre' ->
  lsim (lexec_l (flat_map (lis c ge m) u) r sv pre) (lref_l false m u r pre').
Proof.
  induction 1 as [|x u Hx _ IH]; intros Hs m r sv pre pre' Hp; [repeat split|].
  apply andb_true_iff in Hs as [Hx' Hs]. cbn [flat_map]. rewrite lexec_l_app, lref_l_cons.
  apply lsim_seq; [exact Hp|apply Hx; assumption|intros; apply IH; assumption].
Qed.

Section OneLoop.
Variables (n : N) (t : texpr) (b o : list lstmt).
Hypothesis Ht : src_e t = true.
Hypothesis Hb : forallb lsrc_s b = true.
Hypothesis Ho : forallb lsrc_s o = true.
Hypothesis Fb : Forall loud_ok b.
Hypothesis Fo : Forall loud_ok o.

(* what lmain_gen yields for one `while` (tied by lmain_while), piece by piece; W_test is the test function lexec_while produces *)
Definition W_t' := wrap c E_after_while_test n (ie c t).
Definition W_b' := flat_map (lis c ge false) b.
Definition W_o' := flat_map (lis c ge false) o.
Definition W_after := if sub c E_after_while_loop_iter
                      then [LTry W_b' [LEmit E_after_while_loop_iter n None (Some (if ge then Some (GBody n) else None))]] else W_b'.
Definition W_body := if ge then [LGuardIf (GBody n) (if sub c E_before_while_loop_body then Some n else None) W_after (map (pr ge) b)]
                     else (if sub c E_before_while_loop_body then [LEmit E_before_while_loop_body n (Some (XConst 0 (SBool true))) None] else []) ++ W_after.
Definition W_test := fun (r : env) (pre : list entry) => if ge then (if gon pre (GTest n) then eval_e W_t' r else eval_e t r) else eval_e W_t' r.
(* ebw n and eaw n under the names the statements of this section use *)
Definition bwlb : entry := ebw n.
Definition awli : entry := eaw n.

Lemma test_sim r p p' : fl p = fl p' ->
  fst (W_test r p) = fst (ref_e t r) /\
  fl (snd (W_test r p)) = fl (if negb ge || gon p' (GTest n) then snd (ref_e t r) ++ emitted E_after_while_test n (fst (ref_e t r)) else []).
Proof.
  intros Hp. unfold W_test, W_t'. rewrite (eval_wrap_ie _ _ t r Ht), (eval_src t r Ht), (gon_fl p p' _ Hp).
  destruct ge, (gon p' (GTest n)); split; try reflexivity; apply fl_idem.
Qed.

(* an iteration that starts with the body guard on (or without guards): before_while_loop_body, if subscribed, the body, after_while_loop_iter *)
Lemma loud_iter r sv p p' X : fl p = fl p' ->
  X = (if sub c E_before_while_loop_body then lpre [bwlb] (lexec_l W_after r sv (p ++ [bwlb])) else lexec_l W_after r sv p) ->
  let a := lref_l false false b r (p' ++ [bwlb]) in
  l_exc X = rl_exc a /\ l_env X = rl_env a /\ fl (l_log X) = fl ([bwlb] ++ rl_log a ++ [awli]).
Proof.
  intros Hp HX. destruct (emit_before _ _ _ (lexec_l W_after r sv) p p' X Hp HX) as (q & Hq & -> & -> & _ & ->).
  destruct (loud_list b Fb Hb false r sv q _ Hq) as (E1 & E2 & E3). fold W_b' in E1, E2, E3.
  cbv zeta. unfold bwlb, awli, ebw, eaw in *. cbn [app]. rewrite !(fl_cons c E_before_while_loop_body), fl_app.
  unfold W_after. destruct (sub c E_after_while_loop_iter) eqn:Ea.
  - rewrite lexec_l_single, lexec_unfold. cbn [lexec_of]. repeat split; try assumption. cbn [l_log]. rewrite fl_app, E3. reflexivity.
  - repeat split; try assumption. rewrite E3, fl_single, Ea, app_nil_r. reflexivity.
Qed.

(* the cases of ge as equations, to rewrite W_body and negb ge only: `pr ge` and the reference mention ge as well *)
Lemma W_body_cases :
  (negb ge = false /\ W_body = [LGuardIf (GBody n) (if sub c E_before_while_loop_body then Some n else None) W_after (map (pr ge) b)]) \/
  (negb ge = true /\ W_body = (if sub c E_before_while_loop_body then [LEmit E_before_while_loop_body n (Some (XConst 0 (SBool true))) None] else []) ++ W_after).
Proof. unfold W_body. destruct ge; auto. Qed.

Lemma iter_sim r sv p p' : fl p = fl p' ->
  let LB := negb ge || gon p' (GBody n) in
  let lb := if LB then [bwlb] else [] in
  let A := lexec_l W_body r sv p in
  let a := lref_l (negb LB) false b r (p' ++ lb) in
  let la := if LB then [awli] else [] in
  l_exc A = rl_exc a /\ l_env A = rl_env a /\ fl (l_log A) = fl (lb ++ rl_log a ++ la).
Proof.
  intros Hp. cbv zeta. destruct W_body_cases as [[-> ->]|[-> ->]]; cbn [orb].
  - (* guards enabled: the guard test chooses between the instrumented body and the pristine copy *)
    rewrite lexec_l_single, lexec_unfold. cbn [lexec_of]. rewrite (gon_fl p p' _ Hp). destruct (gon p' (GBody n)); cbn [negb].
    + apply (loud_iter r sv p p' _ Hp). destruct (sub c E_before_while_loop_body); reflexivity.
    + destruct (quiet_list b (Forall_all _ quiet_stmt b) Hb r sv p (p' ++ [])) as [Q1 Q2 Q3 Q4 Q5].
      repeat split; try assumption. rewrite Q4, Q5. reflexivity.
  - (* guards disabled: always instrumented *)
    apply (loud_iter r sv p p' _ Hp). destruct (sub c E_before_while_loop_body); reflexivity.
Qed.

Lemma loop_sim : forall f r sv p p', fl p = fl p' ->
  lsim (lloop W_test W_body W_o' f r sv p) (rloop false n t b o f r p').
Proof.
  induction f as [|f IH]; intros r sv p p' Hp; [repeat split|].
  rewrite lloop_S, rloop_S. unfold lstep, rstep. cbn [negb andb].
  destruct (test_sim r p p' Hp) as (T1 & T2).
  destruct (W_test r p) as [q LT]. destruct (ref_e t r) as [q0 l]. cbn [fst snd] in T1, T2. subst q0.
  destruct q as [vt|e]; [|repeat split; exact T2].
  pose proof (fl_pre c _ _ _ _ Hp T2) as Hq. destruct (truth vt).
  - pose proof (iter_sim r sv _ _ Hq) as HI. cbv zeta in HI. rewrite <- app_assoc in HI.
    apply lsim_iter; [exact Hp|exact T2|exact HI|exact IH].
  - apply lsim_pre; [exact T2|]. apply (loud_list o Fo Ho); exact Hq.
Qed.
Definition W_main : lstmt := if ge then LWhileG n (GTest n) W_t' t W_body W_o' else LWhile n W_t' W_body W_o'.
End OneLoop.
(* a twin of `lis`: the statement proper, what goes after it, what goes around both; rewrite with `lis_unfold`.
   The layer below is that of FragSemProofs.v under the names of this file: `lframe` ~ `finish`, `rthen` ~ `after_of`,
   `lown_ok` + `lassemble` ~ `own_run` + `assemble_run` + `gassemble`, `lbody_nonexpr_value` ~ `ref_body_value`, `lexec_LEmit_some` ~ `exec_body_value` *)
Definition lmain_gen (rec : lstmt -> list lstmt) (s : lstmt) : lstmt :=
  match s with
  | LExpr n v => LExpr n (wrap c E_after_expr_stmt n (ie c v))
  | LAssign n xs v =>
      let v1 := ie c v in
      let v2 := if sub c E_before_assign_rhs then XDefRhs (xid v) v1 else v1 in
      LAssign n xs (wrap c E_after_assign_rhs (xid v) v2)
  | LIf n t b o => LIf n (wrap c E_after_if_test n (ie c t)) (flat_map rec b) (flat_map rec o)
  | LWhile n t b o =>
      let t' := wrap c E_after_while_test n (ie c t) in
      let b' := flat_map rec b in
      let with_after := if sub c E_after_while_loop_iter
                        then [LTry b' [LEmit E_after_while_loop_iter n None (Some (if ge then Some (GBody n) else None))]]
                        else b' in
      if ge then
        LWhileG n (GTest n) t' t [LGuardIf (GBody n) (if sub c E_before_while_loop_body then Some n else None) with_after (map (pr ge) b)] (flat_map rec o)
      else
        LWhile n t' ((if sub c E_before_while_loop_body then [LEmit E_before_while_loop_body n (Some (XConst 0 (SBool true))) None] else []) ++ with_after)
          (flat_map rec o)
  | other => other
  end.
Definition l_is_expr (s : lstmt) : bool := match s with LExpr _ _ => true | _ => false end.
Definition lwants (m : bool) : bool := sub c E_after_stmt || (sub c E_after_module_stmt && m).
Definition lown_gen (m : bool) (s main : lstmt) : list lstmt :=
  lmain_and_after (lwants m) m (lid s) main (l_is_expr s) (match main with LExpr _ v => v | _ => XThunkCall end).
Definition lwrap (m : bool) (n : N) (own : list lstmt) : list lstmt :=
  let expanded := if sub c E_before_stmt then [LBefore n (lmain_and_after (lwants m) m n (LExpr 0 XThunkCall) true XThunkCall) own] else own in
  if m && sub c E_after_module_stmt then expanded ++ [LEmit E_after_module_stmt n (Some (XLoadSaved n)) None] else expanded.
Fixpoint lis' (m : bool) (s : lstmt) {struct s} : list lstmt := lwrap m (lid s) (lown_gen m s (lmain_gen (lis' false) s)).
Lemma lis_fix : lis c ge = lis'.
Proof. reflexivity. Qed.

Definition lmain_of (s : lstmt) : lstmt := lmain_gen (lis c ge false) s.
Definition lown_of (m : bool) (s : lstmt) : list lstmt := lown_gen m s (lmain_of s).
Definition bst (s : lstmt) : entry := (E_before_stmt, lid s, Some VNone).
Lemma lis_unfold m s : lis c ge m s = lwrap m (lid s) (lown_of m s).
Proof. unfold lown_of, lmain_of. rewrite lis_fix. destruct s; reflexivity. Qed.
Lemma lmain_while n t b o : lmain_of (LWhile n t b o) = W_main n t b o.
Proof. unfold lmain_of, W_main, W_body, W_after, W_t', W_b', W_o'. cbn [lmain_gen]. destruct ge; reflexivity. Qed.

Definition res4 (t : option lexc * env * list entry * val) : rlres := let '(x, r', l, _) := t in {| rl_exc := x; rl_env := r'; rl_log := l |}.
Definition lmain_ok (s : lstmt) : Prop := forall r sv pm q, fl pm = fl (q ++ [bst s]) ->
  lsim (lexec_s (lmain_of s) r sv pm) (res4 (lbody_of (fun q => lref_l q false) false s r q)).

Lemma lexec_LEmit_some e n v g r sv pre : (forall k, v <> XLoadSaved k) ->
  lexec_s (LEmit e n (Some v) g) r sv pre =
  let '(q, l) := eval_e v r in
  match q with
  | Ok x => {| l_exc := None; l_env := r; l_saved := (if event_eqb e E_after_stmt then x else sv); l_log := l ++ [(e, n, Some x)] |}
  | Err x => {| l_exc := Some (LX x); l_env := r; l_saved := sv; l_log := l |}
  end.
Proof. intros H. rewrite lexec_unfold. destruct v; try reflexivity. exfalso. exact (H n0 eq_refl). Qed.

Lemma lbody_nonexpr_value s r q : l_is_expr s = false -> snd (lbody_of (fun q => lref_l q false) false s r q) = VNone.
Proof.
  destruct s; try discriminate; intros _; cbn [lbody_of]; try reflexivity.
  - destruct (ref_e v r); reflexivity.
  - destruct (ref_e t r) as [[vt|e] l]; reflexivity.
Qed.

(* the statement and after_stmt; what is saved for after_module_stmt is the value after_stmt carries *)
Lemma lown_ok s m : lsrc_s s = true -> lmain_ok s -> forall r sv pm q, fl pm = fl (q ++ [bst s]) ->
  let O := lexec_l (lown_of m s) r sv pm in
  let B := lbody_of (fun q => lref_l q false) false s r q in
  let av := if m then snd B else VNone in
  lsim O (rthen (res4 B) [(E_after_stmt, lid s, Some av)]) /\ (lwants m = true -> rl_exc (res4 B) = None -> l_saved O = av).
Proof.
  intros Hs HM r sv pm q Hp. cbv zeta. specialize (HM r sv pm q Hp). unfold lown_of, lown_gen, lmain_and_after.
  destruct (lwants m) eqn:W.
  - destruct (l_is_expr s && m) eqn:EM.
    + (* an expression statement of the module: after_stmt carries its value *)
      apply andb_true_iff in EM as [Ee ->]. destruct s; try discriminate Ee. cbn [lsrc_s] in Hs.
      cbn [lmain_of lmain_gen lid lbody_of say]. rewrite lexec_l_single, (lexec_LEmit_some _ _ _ _ _ _ _ (ie_not_load c v Hs _ _)).
      rewrite (eval_wrap_ie _ _ v r Hs). unfold lsim, rthen.
      destruct (ref_e v r) as [[x|e] l]; cbn [fst snd lexc_of res4 l_exc l_env l_log rl_exc rl_env rl_log]; (split; [repeat split|]).
      * apply fl_absorb.
      * reflexivity.
      * rewrite !app_nil_r. apply fl_idem.
      * discriminate.
    + (* otherwise the statement, then after_stmt without a value *)
      assert (Hav : (if m then snd (lbody_of (fun q => lref_l q false) false s r q) else VNone) = VNone).
      { destruct m; [|reflexivity]. rewrite andb_true_r in EM. apply lbody_nonexpr_value, EM. }
      rewrite Hav, lexec_l_cons. split.
      * apply lsim_then; [exact HM|]. repeat split.
      * intros _ Hx. unfold lseq. rewrite (proj1 HM), Hx. reflexivity.
  - (* neither event after the statement is subscribed *)
    rewrite lexec_l_single. split; [|discriminate]. destruct HM as (E1 & E2 & E3). repeat split; try assumption.
    apply orb_false_iff in W as [Wa _]. cbn [rthen rl_log]. rewrite fl_app, E3. destruct (rl_exc _); rewrite ?fl_single, ?Wa, app_nil_r; reflexivity.
Qed.

Lemma lassemble s : (lsrc_s s = true -> lmain_ok s) -> loud_ok s.
Proof.
  intros HM Hs m r sv pre pre' Hp. specialize (HM Hs). rewrite lis_unfold, lref_unfold. unfold lwrap.
  set (EXP := if sub c E_before_stmt then _ else _).
  destruct (emit_before E_before_stmt (lid s) (Some VNone) (lexec_l (lown_of m s) r sv) pre pre' (lexec_l EXP r sv pre) Hp) as (q & Hq & E1 & E2 & E3 & E4).
  { subst EXP. destruct (sub c E_before_stmt); [rewrite lexec_l_single, lexec_unfold|]; reflexivity. }
  pose proof (lown_ok s m Hs HM r sv q pre' Hq) as HO. cbv zeta in HO.
  destruct (lbody_of (fun q => lref_l q false) false s r pre') as [[[x r'] l] v]. destruct HO as ((O1 & O2 & O3) & O4).
  cbn [res4 rthen snd rl_exc rl_env rl_log] in O1, O2, O3, O4. rewrite <- E1 in O1. rewrite <- E2 in O2. rewrite <- E3 in O4.
  unfold lframe. cbn [say].
  assert (HE : fl (l_log (lexec_l EXP r sv pre)) =
               fl ([bst s] ++ l ++ match x with None => [(E_after_stmt, lid s, Some (if m then v else VNone))] | Some _ => [] end)).
  { rewrite E4. unfold bst. cbn [app]. rewrite !(fl_cons c E_before_stmt), O3. reflexivity. }
  destruct (m && sub c E_after_module_stmt) eqn:Am.
  - apply andb_true_iff in Am as [-> Ea]. rewrite lexec_l_app. unfold lseq. rewrite O1. destruct x as [e|].
    + repeat split; assumption.
    + rewrite lexec_l_single. cbn [FragLoop.lexec_s l_exc l_env l_saved l_log]. rewrite O4; [|unfold lwants; rewrite Ea; apply orb_true_r|reflexivity].
      repeat split; try assumption. cbn [l_log rl_log]. rewrite fl_app, HE, <- fl_app, <- !app_assoc. reflexivity.
  - repeat split; try assumption. cbn [rl_log]. rewrite HE. destruct x as [e|]; [reflexivity|].
    destruct m; [|reflexivity]. cbn [andb] in Am. rewrite !fl_app. do 2 f_equal. cbn [app]. rewrite !(fl_cons c E_after_stmt), (fl_single c E_after_module_stmt), Am. reflexivity.
Qed.

Theorem loud_stmt : forall s, loud_ok s.
Proof.
  induction s using lstmt_ind'; apply lassemble; intros Hs r sv pm q Hp; try discriminate Hs; cbn [lsrc_s] in Hs; cbn [lbody_of lid say].
  - cbn [lmain_of lmain_gen FragLoop.lexec_s]. rewrite (eval_wrap_ie _ _ v r Hs). destruct (ref_e v r) as [y l]. repeat split. apply fl_idem.
  - cbn [lmain_of lmain_gen FragLoop.lexec_s]. rewrite (eval_wrap_fl _ _ _ r (fst (ref_e v r)) ((E_before_assign_rhs, xid v, None) :: snd (ref_e v r)))
      by (rewrite eval_rhs_both, (eval_ie _ _ _ _ _ _ c v Hs), <- fl_app; reflexivity).
    destruct (ref_e v r) as [[x|e] l]; repeat split; apply fl_idem.
  - repeat split.
  - destruct (lsrc_parts _ _ _ Hs) as (Ht & Hb & Ho).
    rewrite lexec_unfold. cbn [lmain_of lmain_gen lexec_of]. rewrite (eval_wrap_ie _ _ t r Ht). destruct (ref_e t r) as [[vt|e] l]; cbn [fst snd emitted res4]; [|repeat split; rewrite app_nil_r; apply fl_idem].
    pose proof (fl_idem c (l ++ [(E_after_if_test, n, Some vt)])) as Hl.
    apply lsim_pre; [exact Hl|]. rewrite (app_assoc q). pose proof (fl_pre c _ _ _ _ Hp Hl) as Hq.
    destruct (truth vt); apply loud_list; assumption.
  - destruct (lsrc_parts _ _ _ Hs) as (Ht & Hb & Ho).
    rewrite lmain_while. unfold W_main. rewrite lexec_while, <- rloop_eq. exact (loop_sim n t b o Ht Hb Ho H H0 fuel r sv pm _ Hp).
  - repeat split.
  - repeat split.
Qed.

Notation lref_module := (lref_module binop cmpop unop truth cval is_and c pol fuel ge).

(* the module docstring: as written, first, silent *)
Lemma lrest_src body : forallb lsrc_s body = true -> forallb lsrc_s (lrest body) = true.
Proof.
  destruct body as [|d rest]; [reflexivity|]. unfold lrest. destruct (is_doc_l d); [|auto].
  cbn [forallb]. intros H. now apply andb_true_iff in H as [_ H].
Qed.
Lemma ldoc_lrest body : ldoc body ++ lrest body = body.
Proof. destruct body as [|d rest]; [reflexivity|]. unfold ldoc, lrest. now destruct (is_doc_l d). Qed.
Lemma lexec_doc body u r sv : lexec_l (ldoc body ++ u) r sv [] = lexec_l u r sv [].
Proof.
  destruct body as [|d rest]; [reflexivity|]. unfold ldoc. destruct d as [n v| | | | | | | | | | |]; try reflexivity.
  destruct v as [|m sc| | | | | | | | | | |]; try reflexivity. destruct sc; try reflexivity.
  cbn [is_doc_l app]. rewrite lexec_l_cons. unfold lseq.
  cbn [FragLoop.lexec_s FragSem.eval_e lexc_of l_exc l_env l_saved l_log app]. destruct (lexec_l u r sv []); reflexivity.
Qed.
Theorem lmodule_sim body : forallb lsrc_s body = true -> forall r sv,
  lsim (lexec_l (linstr_module c ge body) r sv []) (lref_module body r).
Proof.
  intros Hs r sv. apply lrest_src in Hs. unfold linstr_module, FragLoop.lref_module. rewrite lexec_doc. unfold linstr_module0, FragLoop.lref_module0.
  set (U := flat_map (lis c ge true) (lrest body) ++ (if sub c E_exit_module then [LEmit E_exit_module 0 None None] else [])).
  set (X := lexec_l _ r sv []).
  destruct (emit_before E_init_module 0 (Some VNone) (lexec_l U r sv) [] [] X eq_refl) as (q & Hq & E1 & E2 & _ & E4).
  { subst X. destruct (sub c E_init_module); reflexivity. }
  assert (HU : lsim (lexec_l U r sv q) (rthen (lref_l false true (lrest body) r [(E_init_module, 0, Some VNone)]) [(E_exit_module, 0, Some VNone)])).
  { subst U. rewrite lexec_l_app. apply lsim_then.
    - apply loud_list; [apply Forall_all, loud_stmt|exact Hs|exact Hq].
    - destruct (sub c E_exit_module) eqn:Xm; repeat split. rewrite fl_single, Xm. reflexivity. }
  destruct HU as (U1 & U2 & U3). unfold lsim. rewrite E1, E2, E4. cbn [rl_exc rl_env rl_log]. repeat split; try assumption.
  rewrite !(fl_cons c E_init_module), U3. reflexivity.
Qed.
End LoopProofs.

Section Inv.
Variable binop : N -> val -> val -> res val.
Variable cmpop : N -> val -> val -> res bool.
Variable unop : N -> val -> res val.
Variable truth : val -> bool.
Variable cval : scalar -> val.
Variable is_and : N -> bool.
Variable fuel : nat.
Variables (c1 c2 : rcfg) (pol1 pol2 : list entry -> guard -> bool) (ge1 ge2 : bool).
Notation R1 := (lref_s binop cmpop unop truth cval is_and c1 pol1 fuel ge1).
Notation R2 := (lref_s binop cmpop unop truth cval is_and c2 pol2 fuel ge2).
Notation RL1 := (lref_l binop cmpop unop truth cval is_and c1 pol1 fuel ge1).
Notation RL2 := (lref_l binop cmpop unop truth cval is_and c2 pol2 fuel ge2).
Notation ref_e := (ref_e binop cmpop unop truth cval is_and).

Definition same_res (a b : rlres) : Prop := rl_exc a = rl_exc b /\ rl_env a = rl_env b.
Definition inv_ok (s : lstmt) : Prop := forall q1 m1 q2 m2 r p1 p2, same_res (R1 q1 m1 s r p1) (R2 q2 m2 s r p2).

Lemma same_seq a b k k' p p' : same_res a b -> (forall r q q', same_res (k r q) (k' r q')) -> same_res (rseq a k p) (rseq b k' p').
Proof. intros (E1 & E2) H. unfold rseq. rewrite E1, E2. destruct (rl_exc b) eqn:Ex; [split; congruence|]. exact (H _ _ _). Qed.
Lemma same_iter lt lb la lt' lb' la' a b k k' p p' : same_res a b -> (forall r q q', same_res (k r q) (k' r q')) ->
  same_res (riter lt lb la a k p) (riter lt' lb' la' b k' p').
Proof.
  intros (E1 & E2) H. unfold riter. rewrite E1, E2.
  destruct (rl_exc b) as [[| | |]|]; try (split; reflexivity); exact (H _ _ _).
Qed.

Lemma inv_list u : Forall inv_ok u -> forall q1 m1 q2 m2 r p1 p2, same_res (RL1 q1 m1 u r p1) (RL2 q2 m2 u r p2).
Proof.
  induction 1 as [|x u Hx _ IH]; intros q1 m1 q2 m2 r p1 p2; [split; reflexivity|].
  rewrite !lref_l_cons. apply same_seq; [apply Hx|intros; apply IH].
Qed.

Lemma inv_loop n t b o : Forall inv_ok b -> Forall inv_ok o -> forall f q1 q2 r p1 p2,
  same_res (rloop binop cmpop unop truth cval is_and c1 pol1 fuel ge1 q1 n t b o f r p1)
           (rloop binop cmpop unop truth cval is_and c2 pol2 fuel ge2 q2 n t b o f r p2).
Proof.
  intros Fb Fo. induction f as [|f IH]; intros q1 q2 r p1 p2; [split; reflexivity|].
  rewrite !rloop_S. unfold rstep. destruct (ref_e t r) as [[vt|e] l]; [|split; reflexivity]. destruct (truth vt).
  - apply same_iter; [apply inv_list, Fb|intros; apply IH].
  - exact (inv_list o Fo _ _ _ _ _ _ _).
Qed.

Theorem inv_stmt : forall s, inv_ok s.
Proof.
  induction s using lstmt_ind'; intros q1 m1 q2 m2 r p1 p2; rewrite !lref_unfold; cbn [lbody_of lid]; try (split; reflexivity).
  - destruct (ref_e v r) as [[x|e] l]; split; reflexivity.
  - destruct (ref_e v r) as [[x|e] l]; split; reflexivity.
  - destruct (ref_e t r) as [[vt|e] l]; [|split; reflexivity]. destruct (truth vt); apply inv_list; assumption.
  - rewrite <- !rloop_eq. apply inv_loop; assumption.
Qed.

Lemma inv_module body r :
  same_res (lref_module binop cmpop unop truth cval is_and c1 pol1 fuel ge1 body r) (lref_module binop cmpop unop truth cval is_and c2 pol2 fuel ge2 body r).
Proof. exact (inv_list (lrest body) (Forall_all _ inv_stmt _) false true false true r _ _). Qed.
End Inv.

Section FinalLoop.
Variable binop : N -> val -> val -> res val.
Variable cmpop : N -> val -> val -> res bool.
Variable unop : N -> val -> res val.
Variable truth : val -> bool.
Variable cval : scalar -> val.
Variable is_and : N -> bool.
Variable fuel : nat.
Notation X := (lexec_l binop cmpop unop truth cval is_and).
Notation RM := (lref_module binop cmpop unop truth cval is_and).

(* C10 on the loop fragment, results: under any two subscriptions, guard settings and guard schedules (policies) the program ends
   with the same exception (or none, or out of fuel in the same place) and the same bindings *)
Theorem loop_results c1 ge1 pol1 c2 ge2 pol2 body r sv sv' : forallb lsrc_s body = true ->
  l_exc (X c1 pol1 fuel (linstr_module c1 ge1 body) r sv []) = l_exc (X c2 pol2 fuel (linstr_module c2 ge2 body) r sv' []) /\
  l_env (X c1 pol1 fuel (linstr_module c1 ge1 body) r sv []) = l_env (X c2 pol2 fuel (linstr_module c2 ge2 body) r sv' []).
Proof.
  intros Hs.
  destruct (lmodule_sim binop cmpop unop truth cval is_and c1 pol1 fuel ge1 body Hs r sv) as (A1 & A2 & _).
  destruct (lmodule_sim binop cmpop unop truth cval is_and c2 pol2 fuel ge2 body Hs r sv') as (B1 & B2 & _).
  destruct (inv_module binop cmpop unop truth cval is_and fuel c1 c2 pol1 pol2 ge1 ge2 body r) as (I1 & I2). split; congruence.
Qed.

(* the stream: the subscribed events arrive exactly as the gated reference says - an iteration that starts while the loop's body guard
   is off (and a test evaluated while the test guard is off) contributes nothing, everything else arrives once, in order, with value and node *)
Theorem loop_stream c ge pol body r sv : forallb lsrc_s body = true ->
  filter_log c (l_log (X c pol fuel (linstr_module c ge body) r sv [])) = filter_log c (rl_log (RM c pol fuel ge body r)).
Proof. intros Hs. exact (proj2 (proj2 (lmodule_sim binop cmpop unop truth cval is_and c pol fuel ge body Hs r sv))). Qed.
End FinalLoop.

(* with nothing subscribed and global guards disabled the rewriter leaves a source program as it is *)
Lemma lis_none : forall s, lsrc_s s = true -> forall m, lis no_events false m s = [s].
Proof.
  assert (N0 : forall e, sub no_events e = false) by reflexivity.
  induction s using lstmt_ind'; intros Hs m; try discriminate Hs; cbn [lis lsrc_s lid] in *; unfold lmain_and_after, wrap; rewrite ?N0; cbn [orb andb];
    rewrite ?andb_false_r; try reflexivity.
  1, 2: rewrite (ie_none no_events N0 v Hs); reflexivity.
  1, 2: destruct (lsrc_parts _ _ _ Hs) as (Ht & Hb & Ho);
    rewrite (ie_none no_events N0 t Ht), (flat_map_unit _ _ b H Hb), (flat_map_unit _ _ o H0 Ho); reflexivity.
Qed.

Lemma linstr_none body : forallb lsrc_s body = true -> linstr_module no_events false body = body.
Proof.
  intros Hs. unfold linstr_module, linstr_module0. cbn [sub no_events app].
  rewrite app_nil_r, (flat_map_unit _ _ _ (Forall_all _ lis_none _) (lrest_src body Hs) true). apply ldoc_lrest.
Qed.

(* hence: the instrumented program, under any subscription / guard setting / schedule, ends as the program as it is *)
Theorem loop_plain binop cmpop unop truth cval is_and fuel c ge pol pol0 body r sv sv' : forallb lsrc_s body = true ->
  l_exc (lexec_l binop cmpop unop truth cval is_and c pol fuel (linstr_module c ge body) r sv []) =
  l_exc (lexec_l binop cmpop unop truth cval is_and no_events pol0 fuel body r sv' []) /\
  l_env (lexec_l binop cmpop unop truth cval is_and c pol fuel (linstr_module c ge body) r sv []) =
  l_env (lexec_l binop cmpop unop truth cval is_and no_events pol0 fuel body r sv' []).
Proof.
  intros Hs. pose proof (loop_results binop cmpop unop truth cval is_and fuel c ge pol no_events false pol0 body r sv sv' Hs) as H.
  rewrite (linstr_none body Hs) in H. exact H.
Qed.
