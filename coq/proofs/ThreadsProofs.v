(* C17: with per-thread switches the main thread's view is independent of every other thread's steps. *)
From Coq Require Import List NArith Bool Arith Lia.
Import ListNotations.
From PyccoloV Require Import model.Threads proofs.ListFacts.

Definition wf (s : state) : Prop := length (switches s) = length (threads s).

Lemma set_nth_length {A} (l : list A) i x : length (set_nth l i x) = length l.
Proof. revert i; induction l as [|y l IH]; intros [|i]; cbn; auto. Qed.
Lemma nth_error_set_nth_other {A} (l : list A) i j x : i <> j -> nth_error (set_nth l i x) j = nth_error l j.
Proof. revert i j; induction l as [|y l IH]; intros [|i] [|j] H; cbn; auto; try congruence; try (apply IH; lia). Qed.
Lemma nth_error_set_nth_same {A} (l : list A) i x : i < length l -> nth_error (set_nth l i x) i = Some x.
Proof. revert i; induction l as [|y l IH]; intros [|i] H; cbn in *; auto; try lia; try (apply IH; lia). Qed.
Lemma nth_set_nth_other {A} (l : list A) i j x d : i <> j -> nth j (set_nth l i x) d = nth j l d.
Proof. intros H. rewrite <- !nth_default_eq. unfold nth_default. now rewrite nth_error_set_nth_other. Qed.
Lemma nth_set_nth_same {A} (l : list A) i x d : i < length l -> nth i (set_nth l i x) d = x.
Proof. intros H. rewrite <- nth_default_eq. unfold nth_default. now rewrite nth_error_set_nth_same. Qed.

Lemma deliveries_tid tid a c b k ts e : In e (deliveries tid a c b k ts) -> fst e = tid.
Proof.
  revert k; induction ts as [|t ts IH]; intros k H; cbn in H; [destruct H|].
  apply in_app_or in H as [H|H]; [|eauto]. destruct (_ || _ || _); [destruct H|]. destruct H as [<-|[]]; reflexivity.
Qed.
Lemma filter_deliveries_other tid a c b k ts : tid <> 0 ->
  filter (fun e : nat * nat => fst e =? 0) (deliveries tid a c b k ts) = [].
Proof.
  intros Hn. apply filter_none. intros e He. apply deliveries_tid in He. rewrite He. now apply Nat.eqb_neq.
Qed.

Lemma step_wf shared ts s tid : wf s -> wf (step shared ts s tid).
Proof.
  unfold wf, step. intros H. destruct (nth_error (threads s) tid) as [th|]; auto.
  destruct (cur th) as [[]|]; cbn; unfold put_sw; rewrite ?set_nth_length; auto.
  destruct (todo th); cbn; rewrite ?set_nth_length; auto.
Qed.

Lemma step_other ts s tid : tid <> 0 -> main_view false (step false ts s tid) = main_view false s.
Proof.
  intros Hn. unfold step. destruct (nth_error (threads s) tid) as [th|]; auto.
  unfold main_view, get_sw, put_sw, slot.
  destruct (cur th) as [[]|]; cbn [switches threads dlog];
    rewrite ?nth_error_set_nth_other, ?nth_set_nth_other by auto; auto.
  - rewrite filter_app, filter_deliveries_other by auto. now rewrite app_nil_r.
  - destruct (todo th); cbn [switches threads dlog]; rewrite ?nth_error_set_nth_other by auto; auto.
Qed.

(* a step of the main thread depends only on what the main thread sees *)
Lemma step_main ts s s' : wf s -> wf s' -> main_view false s = main_view false s' ->
  main_view false (step false ts s 0) = main_view false (step false ts s' 0).
Proof.
  unfold main_view, wf. intros Hw Hw' H.
  apply pair_equal_spec in H as [H Ht]. apply pair_equal_spec in H as [Hl Hs].
  unfold step. rewrite <- Ht. destruct (nth_error (threads s) 0) as [th|] eqn:E.
  2:{ rewrite Hl, Hs. f_equal. congruence. }
  assert (L1 : 0 < length (threads s)) by (destruct (threads s); [discriminate|cbn; lia]).
  assert (L1' : 0 < length (threads s')) by (destruct (threads s'); [discriminate|cbn; lia]).
  assert (L2 : 0 < length (switches s)) by lia. assert (L2' : 0 < length (switches s')) by lia.
  unfold get_sw, put_sw, slot in *. rewrite <- Hs.
  destruct (cur th) as [[]|]; cbn [switches threads dlog];
    rewrite ?nth_error_set_nth_same, ?nth_set_nth_same by auto; rewrite ?Hl; try rewrite <- Hs; auto.
  all: try (rewrite !filter_app, Hl; reflexivity).
  destruct (todo th); cbn [switches threads dlog]; rewrite ?nth_error_set_nth_same by auto; rewrite ?Hl, ?Hs, <- ?Ht, ?E; auto.
Qed.

Lemma run_wf shared ts sched : forall s, wf s -> wf (run_sched shared ts s sched).
Proof. induction sched as [|t sched IH]; intros s H; cbn; auto. apply IH. now apply step_wf. Qed.

Theorem main_independent ts sched : forall s s', wf s -> wf s' -> main_view false s = main_view false s' ->
  main_view false (run_sched false ts s sched) =
  main_view false (run_sched false ts s' (filter (fun t => t =? 0) sched)).
Proof.
  induction sched as [|t sched IH]; intros s s' Hw Hw' H; cbn; auto.
  destruct (t =? 0) eqn:E.
  - apply Nat.eqb_eq in E; subst t. cbn. apply IH; try now apply step_wf. now apply step_main.
  - apply Nat.eqb_neq in E. apply IH; auto; try now apply step_wf. rewrite step_other; auto.
Qed.

(* worker threads deliver only to tracers that allow multiple threads *)
Definition worker_ok (ts : list tracer_cfg) (e : nat * nat) : Prop :=
  fst e <> 0 -> exists t, nth_error ts (snd e) = Some t /\ multi_thread t = true.
Lemma deliveries_worker tid a c b ts0 : forall ts k, (forall i t, nth_error ts i = Some t -> nth_error ts0 (k + i) = Some t) ->
  Forall (worker_ok ts0) (deliveries tid a c b k ts).
Proof.
  induction ts as [|t ts IH]; intros k H; cbn; [constructor|].
  apply Forall_app. split.
  - destruct (negb (tid =? 0) && negb (multi_thread t)) eqn:E1; cbn; [constructor|].
    destruct (a && negb (allow_re t) && negb b); cbn; [constructor|].
    destruct (c && negb (h_re t)); constructor; [|constructor].
    intros Hn. cbn in *. exists t. split; [rewrite <- (Nat.add_0_r k); apply H; reflexivity|].
    apply Nat.eqb_neq in Hn. rewrite Hn in E1. cbn in E1. now destruct (multi_thread t).
  - apply IH. intros i t' Hi. replace (S k + i) with (k + S i) by lia. now apply H.
Qed.
Theorem workers_only_multi shared ts sched : forall s, Forall (worker_ok ts) (dlog s) ->
  Forall (worker_ok ts) (dlog (run_sched shared ts s sched)).
Proof.
  induction sched as [|t sched IH]; intros s H; cbn; auto. apply IH.
  unfold step. destruct (nth_error (threads s) t) as [th|]; auto.
  destruct (cur th) as [[]|]; cbn [dlog]; auto.
  - apply Forall_app. split; auto. apply deliveries_worker. intros i t' Hi. exact Hi.
  - destruct (todo th); cbn; auto.
Qed.

(* the tree before the repair 17b3fba: one process-wide pair of switches.  Worker (thread 1) clears the switch,
   the main thread saves False, is treated as re-entrant and loses its event, the worker restores True, the main
   thread restores False: the next main-thread emission is lost as well. *)
Definition w_sched : list nat :=
  [1;1;1;1;1;1] ++ [0;0;0;0;0;0;0] ++ [1;1;1] ++ [0;0] ++ [0;0;0;0;0;0;0;0;0].
Theorem shared_switches_refuted :
  let ts := [{| multi_thread := false; allow_re := false; h_re := false |}] in
  let s0 := init [2; 1] in
  fst (fst (main_view true (run_sched true ts s0 w_sched))) = [] /\
  fst (fst (main_view true (run_sched true ts s0 (filter (fun t => t =? 0) w_sched)))) = [(0, 0); (0, 0)] /\
  sA (snd (fst (main_view true (run_sched true ts s0 w_sched)))) = false.
Proof. vm_compute. repeat split; reflexivity. Qed.
