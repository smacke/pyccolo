(* C18: the parent-statement table is EXACT (nearest enclosing statement), and the outer-statement classification built on it agrees with the lexical structure. *)
From Coq Require Import List NArith Bool.
Import ListNotations.
From PyccoloV Require Import model.Book proofs.BookProofs proofs.ListFacts.

(* the lexical parent statement: the nearest proper ancestor that is a statement *)
Fixpoint lexp (cur : option N) (n : node) (k : N) {struct n} : option (option N) :=
  match n with
  | Nd st i cs =>
      if N.eqb i k then Some cur
      else let cur' := if st then Some i else cur in
           (fix go (l : list (bool * node)) : option (option N) :=
              match l with [] => None | (_, c) :: l' => match lexp cur' c k with Some r => Some r | None => go l' end end) cs
  end.
Definition go_lexp (cur : option N) (k : N) := fix go (l : list (bool * node)) : option (option N) :=
  match l with [] => None | (_, c) :: l' => match lexp cur c k with Some r => Some r | None => go l' end end.

Lemma lexp_unfold cur n k : lexp cur n k = if N.eqb (nid n) k then Some cur else go_lexp (inner cur n) k (nchildren n).
Proof. destruct n. reflexivity. Qed.
Lemma lexp_self cur n : lexp cur n (nid n) = Some cur.
Proof. rewrite lexp_unfold, N.eqb_refl. reflexivity. Qed.
Lemma go_lexp_none cur k cs : (forall bc, In bc cs -> lexp cur (snd bc) k = None) -> go_lexp cur k cs = None.
Proof.
  induction cs as [|[b c] cs IH]; intros H; [reflexivity|]. cbn [go_lexp]. fold (go_lexp cur k).
  rewrite (H (b, c) (or_introl eq_refl) : lexp cur c k = None). apply IH. intros bc Hbc. apply H. right. exact Hbc.
Qed.

Definition ids (n : node) : list N := map nid (nodes n).
Lemma ids_unfold n : ids n = nid n :: map nid (go_nodes (nchildren n)).
Proof. destruct n. reflexivity. Qed.
Lemma in_ids_kid cs bc k : In bc cs -> In k (ids (snd bc)) -> In k (map nid (go_nodes cs)).
Proof. intros Hbc Hk. apply in_map_iff in Hk as (K & <- & HK). apply in_map, in_go_nodes. exists bc. split; assumption. Qed.

Lemma lexp_none n : forall cur k, ~ In k (ids n) -> lexp cur n k = None.
Proof.
  induction n as [n IH] using node_ind2. intros cur k Hk. rewrite ids_unfold in Hk. rewrite lexp_unfold.
  destruct (N.eqb_spec (nid n) k) as [E|_]; [destruct Hk; left; exact E|].
  apply go_lexp_none. intros bc Hbc. apply (IH bc Hbc). intros H. apply Hk. right. exact (in_ids_kid _ bc k Hbc H).
Qed.

Lemma go_lexp_kid cur cs bc : NoDup (map nid (go_nodes cs)) -> In bc cs ->
  NoDup (ids (snd bc)) /\ forall k, In k (ids (snd bc)) -> go_lexp cur k cs = lexp cur (snd bc) k.
Proof.
  induction cs as [|[b0 c0] cs IH]; intros Hnd Hbc; [destruct Hbc|].
  cbn [go_nodes] in Hnd. fold go_nodes in Hnd. rewrite map_app in Hnd. apply NoDup_app_inv in Hnd as (N1 & N2 & D).
  destruct Hbc as [<-|Hbc].
  - split; [exact N1|]. intros k Hk. cbn [go_lexp snd]. fold (go_lexp cur k). destruct (lexp cur c0 k); [reflexivity|].
    apply go_lexp_none. intros bc Hbc. apply lexp_none. intros H. exact (D k Hk (in_ids_kid cs bc k Hbc H)).
  - destruct (IH N2 Hbc) as [I1 I2]. split; [exact I1|]. intros k Hk. cbn [go_lexp]. fold (go_lexp cur k).
    rewrite (lexp_none c0 cur k); [exact (I2 k Hk)|]. intros H. exact (D k H (in_ids_kid cs bc k Hbc Hk)).
Qed.
Lemma lexp_kid cur n bc : NoDup (ids n) -> In bc (nchildren n) ->
  NoDup (ids (snd bc)) /\ forall k, In k (ids (snd bc)) -> lexp cur n k = lexp (inner cur n) (snd bc) k.
Proof.
  intros Hnd Hbc. rewrite ids_unfold in Hnd. apply NoDup_cons_iff in Hnd as [Hi Hnd].
  destruct (go_lexp_kid (inner cur n) _ bc Hnd Hbc) as [Hndc E]. split; [exact Hndc|]. intros k Hk. rewrite lexp_unfold.
  destruct (N.eqb_spec (nid n) k) as [Ek|_]; [destruct Hi; rewrite Ek; exact (in_ids_kid _ bc k Hbc Hk)|exact (E k Hk)].
Qed.

(* every parent-statement write names the lexical parent of its key: so under NoDup a key is only ever given one value *)
Lemma ps_sound n : forall cur k p, NoDup (ids n) -> In (WPs k p) (visit cur n) -> lexp cur n k = Some (Some p).
Proof.
  induction n as [n IH] using node_ind2. intros cur k p Hnd Hin.
  apply in_visit in Hin as [(c & _ & [=])|[[=]|[(bc & Hbc & Hin)|(bc & Hbc & Hin)]]]; destruct (lexp_kid cur n bc Hnd Hbc) as [Hndc E].
  - destruct (direct_entry cur n bc _ k p Hin (or_intror eq_refl)) as [<- Hc].
    rewrite E, lexp_self, Hc; [reflexivity|exact (in_map nid _ _ (nodes_self _))].
  - pose proof (IH bc Hbc _ k p Hndc Hin) as Hl. rewrite E; [exact Hl|].
    (* the child's lookup found k, so k is one of its ids *)
    destruct (in_dec N.eq_dec k (ids (snd bc))) as [Hk|Hk]; [exact Hk|]. rewrite (lexp_none _ _ k Hk) in Hl. discriminate Hl.
Qed.

(* conversely every statement below the root gets that write: wf puts it in a list field, the only place where visit writes one *)
Lemma ps_complete n : forall cur K p, wf n -> NoDup (ids n) -> (exists bc, In bc (nchildren n) /\ In K (nodes (snd bc))) ->
  nstmt K = true -> lexp cur n (nid K) = Some (Some p) -> In (WPs (nid K) p) (visit cur n).
Proof.
  induction n as [n IH] using node_ind2. intros cur K p Hwf Hnd (bc & Hbc & HK) Hs Hl.
  destruct (lexp_kid cur n bc Hnd Hbc) as [Hndc E]. rewrite (E _ (in_map nid _ _ HK)) in Hl.
  destruct (wf_child n bc Hwf Hbc) as [Hf Hwc]. apply in_visit. right. right.
  apply in_nodes in HK as [<-|HK]; [left|right]; exists bc; (split; [exact Hbc|]).
  - rewrite lexp_self in Hl. injection Hl as Hc. destruct bc as [[] c]; [|rewrite (Hf eq_refl) in Hs; discriminate Hs].
    cbn [direct snd] in *. right. unfold inner in Hc. destruct (nstmt n); [injection Hc as ->; left; reflexivity|].
    rewrite Hs, Hc. left. reflexivity.
  - exact (IH bc Hbc _ K p Hwc Hndc HK Hs Hl).
Qed.

Lemma ps_lookup_in ws k : forall acc, acc <> None \/ (exists p, In (WPs k p) ws) -> ps_lookup ws k acc <> None.
Proof.
  induction ws as [|w ws IH]; intros acc [H|(p & H)]; cbn [ps_lookup].
  - exact H.
  - destruct H.
  - destruct w as [j|j v|j v|j v|j v]; apply IH; left; try exact H. destruct (N.eqb j k); [discriminate|exact H].
  - destruct H as [->|H]; [rewrite N.eqb_refl; apply IH; left; discriminate|]. destruct w; apply IH; right; exists p; exact H.
Qed.

Definition joinp (o : option (option N)) : option N := match o with Some r => r | None => None end.

(* the parent-statement table is EXACT: for every statement of the tree the entry is the nearest enclosing statement, and
   there is no entry when no statement encloses it (the root included) *)
Theorem ps_lookup_exact t : wf t -> NoDup (ids t) -> forall K, In K (nodes t) -> nstmt K = true ->
  ps_lookup (visit None t) (nid K) None = joinp (lexp None t (nid K)).
Proof.
  intros Hwf Hnd K HK Hs. destruct (ps_lookup (visit None t) (nid K) None) as [p|] eqn:E.
  - apply ps_lookup_written in E as [[=]|E]. rewrite (ps_sound t None _ p Hnd E). reflexivity.
  - destruct (lexp None t (nid K)) as [[p|]|] eqn:El; try reflexivity. exfalso.
    apply in_nodes in HK as [<-|HK]; [rewrite lexp_self in El; discriminate El|].
    apply (ps_lookup_in (visit None t) (nid K) None); [right; exists p; exact (ps_complete t None K p Hwf Hnd HK Hs El)|exact E].
Qed.

(* the outer-statement classification: walk up the parent statements while their types are allowed *)
Section Outer.
Variable ty : N -> N.                   (* node id -> node type *)
Variable allowed : N -> bool.           (* the ancestor types of the query *)
(* pyccolo's loop (`while parent_stmt is not None and isinstance(parent_stmt, ancestor_types)`) has no counter; `fuel` bounds it here.
   Every step goes to a proper ancestor, so as many steps as there are statements around the start suffice; the theorems hold for every fuel. *)
Fixpoint walk (step : N -> option N) (fuel : nat) (p : option N) : option N :=
  match fuel with
  | O => p
  | S f => match p with Some q => if allowed (ty q) then walk step f (step q) else p | None => None end
  end.
Definition only_allowed_tbl (t : node) (k : N) (fuel : nat) : bool :=
  match walk (fun q => ps_lookup (visit None t) q None) fuel (ps_lookup (visit None t) k None) with None => true | Some _ => false end.
Definition only_allowed_lex (t : node) (k : N) (fuel : nat) : bool :=
  match walk (fun q => joinp (lexp None t q)) fuel (joinp (lexp None t k)) with None => true | Some _ => false end.

Theorem outer_exact t : wf t -> NoDup (ids t) -> forall K, In K (nodes t) -> nstmt K = true -> forall fuel,
  only_allowed_tbl t (nid K) fuel = only_allowed_lex t (nid K) fuel.
Proof.
  intros Hwf Hnd K HK Hs fuel. unfold only_allowed_tbl, only_allowed_lex. f_equal. revert K HK Hs.
  (* the walk stays on statements of the tree, where both tables agree: what the table holds is a statement (parent_stmt_contains) *)
  induction fuel as [|f IH]; intros K HK Hs; rewrite <- (ps_lookup_exact t Hwf Hnd K HK Hs); [reflexivity|]. cbn [walk].
  destruct (ps_lookup (visit None t) (nid K) None) as [q|] eqn:E; [|reflexivity]. destruct (allowed (ty q)); [|reflexivity].
  destruct (parent_stmt_contains t _ q E) as (P & HP & HsP & <- & _). exact (IH P HP HsP).
Qed.

(* the query as the library asks it, for ANY node (tracer.stmt_only_has_ancestor_types): start from the node's containing statement when the
   table has one, from the node itself otherwise *)
Definition only_allowed_node (t : node) (k : N) (fuel : nat) : bool :=
  only_allowed_tbl t (match cs_lookup (visit None t) k None with Some s => s | None => k end) fuel.

Theorem outer_node_exact t : wf t -> NoDup (ids t) -> forall k s, cs_lookup (visit None t) k None = Some s -> forall fuel,
  contains t s k /\ only_allowed_node t k fuel = only_allowed_lex t s fuel.
Proof.
  intros Hwf Hnd k s Hc fuel. pose proof (containing_stmt_contains t k s Hwf Hc) as Hcon. split; [exact Hcon|].
  destruct Hcon as (S & HS & Hst & Hid & _). unfold only_allowed_node. rewrite Hc. subst s. apply (outer_exact t Hwf Hnd S HS Hst).
Qed.
End Outer.
