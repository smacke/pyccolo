(* C16: switches are restored by every emission/region, and nested handler invocations are all opted in. *)
From Coq Require Import List NArith Bool.
Import ListNotations.
From PyccoloV Require Import model.Reent.

Fixpoint node_ind2 (P : node -> Prop) (H : forall t cs, Forall P cs -> P (Node t cs)) (n : node) : P n :=
  match n with
  | Node t cs => H t cs ((fix go (l : list node) : Forall P l :=
                            match l with [] => Forall_nil P | x :: l' => Forall_cons x (node_ind2 P H x) (go l') end) cs)
  end.

Lemma run_em tracers s :
  run (Node TgEm tracers) s =
    let is_re := negb (fA s) in
    let re_only := is_re && negb (fR s) in
    let '(raised, s1) := tloop_of run is_re re_only tracers (set_flags s false (fR s)) in
    (raised, set_flags s1 (fA s) (fR s)).
Proof. reflexivity. Qed.
Lemma run_region acts s :
  run (Node TgRegion acts) s =
    let '(r, s1) := aloop_of run acts (set_flags s (fA s) true) in (r, set_flags s1 (fA s1) (fR s)).
Proof. reflexivity. Qed.
Lemma run_catch acts s :
  run (Node TgCatch acts) s = let '(r, s1) := aloop_of run acts s in (false, s1).
Proof. reflexivity. Qed.

(* An emission runs the acts of the handlers of its tracers: what `run` recurses on lies three levels down, and the
   nodes in between (tracers, handlers) are not run themselves.  deep k P n: P holds k levels below n. *)
Definition kids (n : node) : list node := match n with Node _ cs => cs end.
Fixpoint deep (k : nat) (P : node -> Prop) (n : node) : Prop :=
  match k with 0 => P n | S k' => Forall (deep k' P) (kids n) end.

Lemma node_ind3 (P : node -> Prop) : (forall n, deep 1 P n -> deep 3 P n -> P n) -> forall n, P n.
Proof.
  intros H n. enough (Hk : forall k, deep k P n) by apply (Hk 0).
  induction n as [t cs IH] using node_ind2.
  assert (HS : forall k, deep (S k) P (Node t cs)).
  { intros k. eapply Forall_impl; [|exact IH]. intros c Hc. apply Hc. }
  intros [|k]; [apply H|]; apply HS.
Qed.

Definition same (s s' : st) : Prop := fA s' = fA s /\ fR s' = fR s /\ depth s' = depth s.
Definition restores (n : node) : Prop := forall s, same s (snd (run n s)).

Lemma same_refl s : same s s. Proof. repeat split. Qed.
Lemma same_trans a b c : same a b -> same b c -> same a c.
Proof. unfold same. intros (?&?&?) (?&?&?). repeat split; congruence. Qed.

Lemma aloop_same acts : Forall restores acts -> forall s, same s (snd (aloop_of run acts s)).
Proof.
  induction 1 as [|a az Ha _ IH]; intros s; cbn; [apply same_refl|].
  pose proof (Ha s) as Hs. destruct (run a s) as [r s']. cbn in Hs. destruct r; cbn; auto.
  eapply same_trans; eauto.
Qed.

Lemma invoke_same id allow_re reentrant acts : Forall restores acts ->
  forall s, same s (snd (invoke run id allow_re reentrant acts s)).
Proof.
  intros Hf s. unfold invoke.
  pose proof (aloop_same acts Hf {| fA := fA s; fR := fR s; depth := S (depth s); in_main := in_main s;
                                   log := log s ++ [(depth s, fR s || allow_re && reentrant, id)] |}) as Hs.
  destruct (aloop_of run acts _) as [r so]. destruct Hs as (H1 & H2 & _). cbn in *. repeat split; auto.
Qed.

Lemma hloop_same re_only allow_re propagate hs : Forall (deep 1 restores) hs ->
  forall s, same s (snd (hloop_of run re_only allow_re propagate hs s)).
Proof.
  induction 1 as [|h hs Hh _ IH]; intros s; cbn; [apply same_refl|].
  destruct h as [[| | id reentrant raises c | |] acts]; auto.
  destruct (re_only && negb reentrant); auto.
  pose proof (invoke_same id allow_re reentrant acts Hh s) as Hs.
  destruct (invoke run id allow_re reentrant acts s) as [r s']. cbn in Hs.
  destruct (r || raises).
  - destruct propagate; cbn; auto. eapply same_trans; eauto.
  - destruct c; cbn; auto. eapply same_trans; eauto.
Qed.

Lemma tloop_same is_re re_only ts : Forall (deep 2 restores) ts ->
  forall s, same s (snd (tloop_of run is_re re_only ts s)).
Proof.
  induction 1 as [|t ts Ht _ IH]; intros s; cbn; [apply same_refl|].
  destruct t as [[| allow_re propagate hd multi | | |] hs]; auto.
  destruct (negb (in_main s) && negb multi); auto.
  destruct (is_re && negb allow_re && negb (fR s)); auto. destruct hd; auto.
  pose proof (hloop_same re_only allow_re propagate hs Ht s) as Hs.
  destruct (hloop_of run re_only allow_re propagate hs s) as [res s']. cbn in Hs.
  destruct res as [|[|]]; cbn; auto. eapply same_trans; eauto.
Qed.

Fixpoint all_desc (P : node -> Prop) (n : node) : Prop :=
  match n with Node _ cs => P n /\ (fix go (l : list node) : Prop := match l with [] => True | x :: l' => all_desc P x /\ go l' end) cs end.

Theorem restore_all : forall n s, same s (snd (run n s)).
Proof.
  apply (node_ind3 restores). intros [t cs] Hc Hg s. destruct t; try apply same_refl.
  - rewrite run_em. cbn zeta.
    pose proof (tloop_same (negb (fA s)) (negb (fA s) && negb (fR s)) cs Hg (set_flags s false (fR s))) as Hs.
    destruct (tloop_of run _ _ cs _) as [r s1]. destruct Hs as (_ & _ & Hd). cbn in *. now repeat split.
  - rewrite run_region. pose proof (aloop_same cs Hc (set_flags s (fA s) true)) as Hs.
    destruct (aloop_of run cs _) as [r s1]. destruct Hs as (H1 & _ & H3). cbn in *. now repeat split.
  - rewrite run_catch. pose proof (aloop_same cs Hc s) as Hs. now destruct (aloop_of run cs s).
Qed.

(* a running handler means A is off *)
Definition inv (s : st) : Prop := depth s >= 1 -> fA s = false.
(* every nested invocation (one logged while a handler was running) was opted in *)
Definition good_log (s : st) : Prop := Forall (fun e : nat * bool * N => fst (fst e) >= 1 -> snd (fst e) = true) (log s).
Definition depth_ok (n : node) : Prop := forall s, inv s -> good_log s -> good_log (snd (run n s)).

Lemma aloop_good acts : Forall depth_ok acts -> forall s, inv s -> good_log s -> good_log (snd (aloop_of run acts s)).
Proof.
  induction 1 as [|a az Ha _ IH]; intros s Hi Hg; cbn; auto.
  pose proof (Ha s Hi Hg) as Hg'. pose proof (restore_all a s) as (H1 & H2 & H3).
  destruct (run a s) as [r s']. cbn in *. destruct r; cbn; auto.
  apply IH; auto. unfold inv. rewrite H1, H3. exact Hi.
Qed.

(* inside an emission: A is off, R is what it was at entry (origR), depth is d *)
Definition J (origR : bool) (d : nat) (s : st) : Prop := fA s = false /\ fR s = origR /\ depth s = d /\ good_log s.

(* the side conditions: an emission made while a handler runs is re-entrant (`inv` at its entry), and the skip tests of tloop
   (tracer does not allow re-entrant events) and of hloop (handler not registered reentrant) have both failed *)
Lemma invoke_J origR d is_re id allow_re reentrant acts : Forall depth_ok acts ->
  (d >= 1 -> is_re = true) ->
  (is_re && negb allow_re && negb origR = false) -> ((is_re && negb origR) && negb reentrant = false) ->
  forall s, J origR d s -> J origR d (snd (invoke run id allow_re reentrant acts s)).
Proof.
  intros Hf Hre Hg1 Hg2 s (HA & HR & HD & HL). unfold invoke.
  set (s_in := {| fA := fA s; fR := fR s; depth := S (depth s); in_main := in_main s; log := log s ++ [(depth s, fR s || allow_re && reentrant, id)] |}).
  assert (Hin : good_log s_in).
  { unfold good_log, s_in. cbn. apply Forall_app. split; auto. constructor; [|constructor]. cbn. intros Hd1.
    rewrite HD in Hd1. specialize (Hre Hd1). subst is_re. rewrite HR. cbn in *.
    destruct origR; cbn in *; auto. destruct allow_re; cbn in *; try discriminate. destruct reentrant; cbn in *; auto. }
  assert (Hinv : inv s_in) by (intros _; exact HA).
  pose proof (aloop_good acts Hf s_in Hinv Hin) as Hgl.
  pose proof (aloop_same acts (proj2 (Forall_forall _ _) (fun a _ => restore_all a)) s_in) as (H1 & H2 & H3).
  destruct (aloop_of run acts s_in) as [r so]. cbn in *. unfold J. cbn. repeat split; auto; congruence.
Qed.

Lemma hloop_J origR d is_re allow_re propagate hs : Forall (deep 1 depth_ok) hs ->
  (d >= 1 -> is_re = true) -> (is_re && negb allow_re && negb origR = false) ->
  forall s, J origR d s -> J origR d (snd (hloop_of run (is_re && negb origR) allow_re propagate hs s)).
Proof.
  intros Hf Hre Hg1. induction Hf as [|h hs Hh _ IH]; intros s HJ; cbn; auto.
  destruct h as [[| | id reentrant raises c | |] acts]; auto.
  destruct ((is_re && negb origR) && negb reentrant) eqn:Eg; auto.
  pose proof (invoke_J origR d is_re id allow_re reentrant acts Hh Hre Hg1 Eg s HJ) as HJ'.
  destruct (invoke run id allow_re reentrant acts s) as [r s']. cbn in HJ'.
  destruct (r || raises); [destruct propagate|destruct c]; cbn; auto.
Qed.

Lemma tloop_J origR d is_re ts : Forall (deep 2 depth_ok) ts -> (d >= 1 -> is_re = true) ->
  forall s, J origR d s -> J origR d (snd (tloop_of run is_re (is_re && negb origR) ts s)).
Proof.
  intros Hf Hre. induction Hf as [|t ts Ht _ IH]; intros s HJ; cbn; auto.
  destruct t as [[| allow_re propagate hd multi | | |] hs]; auto.
  destruct HJ as (HA & HR & HD & HL). rewrite HR.
  destruct (negb (in_main s) && negb multi); [apply IH; repeat split; auto|].
  destruct (is_re && negb allow_re && negb origR) eqn:Eg; [apply IH; repeat split; auto|].
  destruct hd; [apply IH; repeat split; auto|].
  pose proof (hloop_J origR d is_re allow_re propagate hs Ht Hre Eg s (conj HA (conj HR (conj HD HL)))) as HJ'.
  destruct (hloop_of run (is_re && negb origR) allow_re propagate hs s) as [res s']. cbn in HJ'.
  destruct res as [|[|]]; cbn; auto.
Qed.

Theorem depth_all : forall n, depth_ok n.
Proof.
  apply node_ind3. intros [t cs] Hc Hg s Hi HL. destruct t; try exact HL.
  - rewrite run_em. cbn zeta.
    assert (Hre : depth s >= 1 -> negb (fA s) = true) by (intros Hd; now rewrite (Hi Hd)).
    pose proof (tloop_J (fR s) (depth s) (negb (fA s)) cs Hg Hre (set_flags s false (fR s))) as HJ.
    destruct (tloop_of run _ _ cs _) as [r s1]. now apply HJ.
  - rewrite run_region. pose proof (aloop_good cs Hc (set_flags s (fA s) true) Hi HL) as HL'.
    now destruct (aloop_of run cs _).
  - rewrite run_catch. pose proof (aloop_good cs Hc s Hi HL) as HL'. now destruct (aloop_of run cs s).
Qed.

Theorem run_all_restores ns : forall s, same s (snd (run_all ns s)).
Proof.
  induction ns as [|n ns IH]; intros s; cbn; [apply same_refl|].
  pose proof (restore_all n s) as H1. destruct (run n s) as [r s1]. pose proof (IH s1) as H2.
  destruct (run_all ns s1) as [rs s2]. cbn in *. eapply same_trans; eauto.
Qed.
Theorem run_all_depth ns : forall s, inv s -> good_log s -> good_log (snd (run_all ns s)).
Proof.
  induction ns as [|n ns IH]; intros s Hi Hg; cbn; auto.
  pose proof (depth_all n s Hi Hg) as H1. pose proof (restore_all n s) as (Ha & Hr & Hd).
  destruct (run n s) as [r s1]. pose proof (IH s1) as H2. destruct (run_all ns s1) as [rs s2]. cbn in *.
  apply H2; auto. unfold inv. rewrite Ha, Hd. exact Hi.
Qed.

(* no opt-in anywhere in the tree: no region, no tracer that allows re-entrant events, no handler registered reentrant *)
Fixpoint no_optin (n : node) : bool :=
  match n with
  | Node t cs =>
      match t with TgRegion => false | TgTracer a _ _ _ => negb a | TgHandler _ r _ _ => negb r | _ => true end
      && (fix go (l : list node) : bool := match l with [] => true | x :: l' => no_optin x && go l' end) cs
  end.
