(* C04: the runtime fold refines the rule stated by the property. *)
From Coq Require Import List NArith Bool.
Import ListNotations.
From PyccoloV Require Import gen.Events gen.EmitRet model.Val model.Rt.

(* the property's rule, as the simplest fold *)
Inductive verdict : Set := Continue | StopTracer | StopAll.
Definition step_spec (o : hout) (v : rv) : rv * verdict :=
  match o with
  | HRaise => (v, Continue)               (* a handler that raises is treated as returning nothing *)
  | HRet RNone => (v, Continue)           (* returning nothing keeps the value *)
  | HRet RNull => (RNone, Continue)       (* Null replaces it with None *)
  | HRet RSkip => (v, StopTracer)         (* Skip ends that tracer's remaining handlers *)
  | HRet RSkipAll => (v, StopAll)         (* SkipAll ends all remaining tracers *)
  | HRet w => (w, Continue)               (* returning a value (falsy or not) replaces it *)
  end.
(* handlers in definition order; a handler that is locally guarded off or whose condition fails is not run *)
Fixpoint spec_tracer (ti hi : nat) (hs : list hspec) (v : rv) (log : list callrec) : rv * bool * list callrec :=
  match hs with
  | [] => (v, false, log)
  | h :: hs' =>
      if h_guard_skip h || negb (h_pred h) then spec_tracer ti (S hi) hs' v log
      else
        let log' := log ++ [(ti, hi, v)] in
        match step_spec (h_fun h v) v with
        | (w, Continue) => spec_tracer ti (S hi) hs' w log'
        | (w, StopTracer) => (w, false, log')
        | (w, StopAll) => (w, true, log')
        end
  end.
Definition t_active (t : tracer) : bool := negb (t_hard_disabled t) && t_file_ok t.
(* tracers in activation order *)
Fixpoint spec_all (ti : nat) (ts : list tracer) (v : rv) (log : list callrec) : rv * list callrec :=
  match ts with
  | [] => (v, log)
  | t :: ts' =>
      if t_active t then
        match spec_tracer ti 0 (t_handlers t) v log with
        | (w, true, log') => (w, log')
        | (w, false, log') => spec_all (S ti) ts' w log'
        end
      else spec_all (S ti) ts' v log
  end.

(* values a handler can be given / can return in the fragment: not the internal (SkipAll, x) tuple *)
Definition plain (v : rv) : bool := match v with RTuple2 _ _ => false | _ => true end.
Definition plain_out (o : hout) : bool := match o with HRet r => plain r | HRaise => true end.
Definition handlers_plain (hs : list hspec) : Prop := forall h v, In h hs -> plain_out (h_fun h v) = true.
Definition ast_event (ev : event) : bool := negb (event_eqb ev E_call || event_eqb ev E_exception).

Definition tracers_plain (ts : list tracer) : Prop :=
  forall t, In t ts -> handlers_plain (t_handlers t) /\ t_propagate t = false.

Lemma handlers_plain_cons h hs : handlers_plain (h :: hs) ->
  (forall v, plain_out (h_fun h v) = true) /\ handlers_plain hs.
Proof. intros Hp. split; [intros v|intros h' v Hin]; apply Hp; [now left|now right]. Qed.

Lemma tracers_plain_cons t ts : tracers_plain (t :: ts) ->
  (handlers_plain (t_handlers t) /\ t_propagate t = false) /\ tracers_plain ts.
Proof. intros Hp. split; [|intros t' Hin]; apply Hp; [now left|now right]. Qed.

Lemma step_spec_plain o v : plain_out o = true -> plain v = true -> plain (fst (step_spec o v)) = true.
Proof. destruct o as [[]|]; cbn; auto. Qed.

Lemma spec_tracer_plain ti : forall hs hi v log, handlers_plain hs -> plain v = true ->
  plain (fst (fst (spec_tracer ti hi hs v log))) = true.
Proof.
  induction hs as [|h hs IH]; intros hi v log Hp Hv; cbn [spec_tracer]; [exact Hv|].
  apply handlers_plain_cons in Hp as [Hh Hp].
  destruct (_ || _); [now apply IH|].
  pose proof (step_spec_plain _ v (Hh v) Hv) as Hw.
  destruct (step_spec (h_fun h v) v) as [w []]; auto.
Qed.

(* the return rule of tracer.py does not single out 'call' / 'exception' (repair 1038109): no premise on the event below *)

(* th': a handler whose condition fails still goes through the return rule, which records the thunk for before_stmt *)
Lemma loop_skip ev ti hi h hs v th log : h_guard_skip h || negb (h_pred h) = true ->
  exists th', handlers_loop ev false false ti hi (h :: hs) v th log = handlers_loop ev false false ti (S hi) hs v th' log.
Proof.
  cbn [handlers_loop andb]. destruct (h_guard_skip h); [eauto|]. destruct (h_pred h); [discriminate|]. cbn. eauto.
Qed.

(* a handler that runs: this is where handle_normal_emit_return / handle_skipall_emit_return are evaluated, once per
   class of outcome *)
Lemma loop_run ev ti hi h hs v th log : h_guard_skip h || negb (h_pred h) = false ->
  handlers_loop ev false false ti hi (h :: hs) v th log =
    let th' w := if event_eqb ev E_before_stmt then Some w else th in
    match step_spec (h_fun h v) v with
    | (w, Continue) => handlers_loop ev false false ti (S hi) hs w (th' w) (log ++ [(ti, hi, v)])
    | (w, StopTracer) => (TVal w, th' w, log ++ [(ti, hi, v)])
    | (w, StopAll) => (TVal (RTuple2 RSkipAll w), th, log ++ [(ti, hi, v)])
    end.
Proof.
  intros Hr. apply orb_false_iff in Hr as [Hg Hp]. apply negb_false_iff in Hp.
  cbn [handlers_loop andb]. rewrite Hg, Hp.
  destruct (h_fun h v) as [[]|]; reflexivity.
Qed.

Lemma handlers_refine_any ev ti : forall hs hi v th log, handlers_plain hs -> plain v = true ->
  exists th',
  handlers_loop ev false false ti hi hs v th log =
    (match spec_tracer ti hi hs v log with
     | (w, true, _) => TVal (RTuple2 RSkipAll w)
     | (w, false, _) => TVal w end, th', snd (spec_tracer ti hi hs v log)).
Proof.
  induction hs as [|h hs IH]; intros hi v th log Hp Hv; [cbn; eauto|].
  apply handlers_plain_cons in Hp as [Hh Hp]. cbn [spec_tracer].
  destruct (_ || _) eqn:Hr.
  - destruct (loop_skip ev ti hi h hs v th log Hr) as [th1 ->]. now apply IH.
  - rewrite loop_run by exact Hr. pose proof (step_spec_plain _ v (Hh v) Hv) as Hw.
    destruct (step_spec (h_fun h v) v) as [w []]; eauto.
Qed.

(* one tracer's own fold (tracer._emit_event, the path system events take: they do not go through the stack loop), any event *)
Theorem tracer_fold_any ev ti t v th log : handlers_plain (t_handlers t) -> t_propagate t = false -> t_hard_disabled t = false -> plain v = true ->
  exists th', tracer_emit ev false ti t v th log =
    (match spec_tracer ti 0 (t_handlers t) v log with (w, true, _) => TVal (RTuple2 RSkipAll w) | (w, false, _) => TVal w end,
     th', snd (spec_tracer ti 0 (t_handlers t) v log)).
Proof. intros Hp Hpr Hd Hv. unfold tracer_emit. rewrite Hd, Hpr. now apply handlers_refine_any. Qed.

(* a plain value is not the (SkipAll, x) tuple on which the stack loop breaks *)
Lemma plain_no_break {A} v (x : rv -> A) (y : A) : plain v = true ->
  match v with RTuple2 RSkipAll w => x w | _ => y end = y.
Proof. destruct v; (discriminate || reflexivity). Qed.

Lemma loop_refines_any ev : forall ts ti v log, tracers_plain ts -> plain v = true ->
  exists ths, tracer_loop ev true false false false ti ts v log =
              (TVal (fst (spec_all ti ts v log)), ths, snd (spec_all ti ts v log))
              /\ plain (fst (spec_all ti ts v log)) = true.
Proof.
  induction ts as [|t ts IH]; intros ti v log Hp Hv; [cbn; eauto|].
  apply tracers_plain_cons in Hp as [[Hh Hpr] Hp].
  cbn [tracer_loop spec_all negb andb orb]. unfold t_active.
  destruct (t_file_ok t); cbn [negb]; rewrite ?andb_false_r.
  2: { destruct (IH (S ti) v log Hp Hv) as (ths & -> & Hw). eauto. }
  destruct (t_hard_disabled t) eqn:Hd; cbn [negb andb].
  - unfold tracer_emit. rewrite Hd, plain_no_break by exact Hv.
    destruct (IH (S ti) v log Hp Hv) as (ths & -> & Hw). eauto.
  - destruct (tracer_fold_any ev ti t v None log Hh Hpr Hd Hv) as [th ->].
    pose proof (spec_tracer_plain ti (t_handlers t) 0 v log Hh Hv) as Hw.
    destruct (spec_tracer ti 0 (t_handlers t) v log) as [[w []] log']; cbn [fst snd] in *; [eauto|].
    rewrite plain_no_break by exact Hw. destruct (IH (S ti) w log' Hp Hw) as (ths & -> & Hw'). eauto.
Qed.

(* every fold theorem is about an emission on the main thread (`emit ev true`) that is not re-entrant (fl0: no handler is running)
   and whose tracers do not propagate handler exceptions (tracers_plain) *)
Definition fl0 : flags := {| allow_handling := true; allow_reentrant := false |}.

Theorem emit_refines ev ts v : tracers_plain ts -> plain v = true ->
  exists ths, emit ev true fl0 ts v = (TVal (make_ret ev (fst (spec_all 0 ts v []))), fl0, ths, snd (spec_all 0 ts v [])).
Proof.
  intros Hp Hv. unfold emit, fl0. cbn [allow_handling allow_reentrant negb andb].
  destruct (loop_refines_any ev ts 0 v [] Hp Hv) as (ths & -> & _). eauto.
Qed.

(* C04: for every stack of tracers, every handler list, every outcome function, every initial value *)
Theorem fold_refines ev ts v : ast_event ev = true -> tracers_plain ts -> plain v = true ->
  exists ths, emit ev true fl0 ts v = (TVal (make_ret ev (fst (spec_all 0 ts v []))), fl0, ths, snd (spec_all 0 ts v [])).
Proof. intros _. apply emit_refines. Qed.

Lemma loop_thunks_length ev a b c d : forall ts ti v log,
  length (snd (fst (tracer_loop ev a b c d ti ts v log))) = length ts.
Proof.
  induction ts as [|t ts IH]; intros ti v log; cbn [tracer_loop]; [reflexivity|].
  destruct (_ || _ || _).
  - specialize (IH (S ti) v log). destruct (tracer_loop ev a b c d (S ti) ts v log) as [[r th] l]. cbn. now f_equal.
  - destruct (tracer_emit ev c ti t v None log) as [[[w|] th] l0]; [|cbn; now rewrite map_length].
    specialize (IH (S ti) w l0). destruct (tracer_loop ev a b c d (S ti) ts w l0) as [[r th1] l1].
    destruct w as [| | | | | | | |[] w2]; cbn; rewrite ?map_length; now f_equal.
Qed.

(* before_stmt: what the program continues with *)
Definition spec_action (final : rv) : stmt_action :=
  if rv_truthy final then match final with RPass => SkipStmt | c => RunReplacement c end else RunOriginal.

Lemma nth_map_const {A B C} (xs : list A) (c : C) : forall (ys : list B) owner t,
  nth_error xs owner = Some t -> length ys = length xs ->
  nth owner (map (fun _ : A * B => Some c) (combine xs ys)) None = Some c.
Proof.
  induction xs as [|x xs IH]; intros [|y ys] [|o] t Hn Hl; cbn in *; try discriminate; auto.
  eapply IH; eauto.
Qed.

Lemma final_action w : before_stmt_action (TVal w) (Some w) = spec_action w.
Proof. now destruct w. Qed.

(* every stack: the loop leaves the final value with every tracer (repair d1a933e), so the statement does exactly what
   the value finally left says, whichever tracer owns EXEC_SAVED_THUNK *)
Theorem before_stmt_any ts : tracers_plain ts ->
  forall r fl' ths log, emit E_before_stmt true fl0 ts RNone = (r, fl', ths, log) ->
  forall owner t, nth_error ts owner = Some t ->
  before_stmt_action r (nth owner ths None) = spec_action (fst (spec_all 0 ts RNone [])).
Proof.
  intros Hp r fl' ths log H owner t Hn.
  destruct (loop_refines_any E_before_stmt ts 0 RNone [] Hp eq_refl) as (ths0 & E & _).
  unfold emit, fl0 in H. cbn [allow_handling allow_reentrant negb andb] in H. rewrite E in H.
  cbn in H. injection H as <- _ <- _.
  pose proof (loop_thunks_length E_before_stmt true false false false ts 0 RNone []) as Hl. rewrite E in Hl.
  rewrite (nth_map_const ts _ ths0 owner t Hn Hl).
  apply final_action.
Qed.

(* the arrangement that fails on the tree before the repair d1a933e, where a tracer's slot is filled by its own handlers only and the
   owner of EXEC_SAVED_THUNK need not have seen the value: T0 replaces the statement, T1 (last entered, owner) has no
   before_stmt handler.  With the final value left with every tracer the replacement runs. *)
Definition override_h : hspec :=
  {| h_reentrant := false; h_guard_skip := false; h_pred := true; h_fun := fun _ => HRet (RUser 7 false) |}.
Definition mk_tracer (hs : list hspec) : tracer :=
  {| t_hard_disabled := false; t_allow_reentrant := false; t_multi_thread := false; t_file_ok := true;
     t_propagate := false; t_handlers := hs |}.
Example before_stmt_two_tracers_now_fine :
  let ts := [mk_tracer [override_h]; mk_tracer []] in
  let '(r, _, ths, _) := emit E_before_stmt true fl0 ts RNone in
  before_stmt_action r (last ths None) = RunReplacement (RUser 7 false).
Proof. vm_compute. reflexivity. Qed.
