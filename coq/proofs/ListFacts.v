(* Facts about lists that several proof files use and the standard library of Coq 8.16 lacks. *)
From Coq Require Import List NArith.
Import ListNotations.

Lemma filter_all {A} (f : A -> bool) l : (forall x, In x l -> f x = true) -> filter f l = l.
Proof. induction l as [|x l IH]; intros H; cbn; [reflexivity|]. rewrite H, IH; auto with datatypes. Qed.

Lemma filter_none {A} (f : A -> bool) l : (forall x, In x l -> f x = false) -> filter f l = [].
Proof. induction l as [|x l IH]; intros H; cbn; [reflexivity|]. rewrite H, IH; auto with datatypes. Qed.

Lemma existsb_eqb_In k l : existsb (N.eqb k) l = true <-> In k l.
Proof.
  rewrite existsb_exists. split.
  - intros (x & Hx & E). apply N.eqb_eq in E. now subst x.
  - intros H. exists k. split; [exact H|apply N.eqb_refl].
Qed.

(* a rewriter `f m` that leaves every source element as it is leaves a source list as it is *)
Lemma flat_map_unit {A B} (src : A -> bool) (f : B -> A -> list A) u :
  Forall (fun s => src s = true -> forall m, f m s = [s]) u -> forallb src u = true -> forall m, flat_map (f m) u = u.
Proof.
  induction 1 as [|x u Hx _ IH]; intros Hu m; [reflexivity|]. apply Bool.andb_true_iff in Hu as [Hx' Hu].
  cbn [flat_map]. rewrite (Hx Hx'), (IH Hu). reflexivity.
Qed.

Lemma NoDup_app_inv {A} (a b : list A) : NoDup (a ++ b) -> NoDup a /\ NoDup b /\ forall x, In x a -> ~ In x b.
Proof.
  induction a as [|x a IH]; cbn; intros H; [repeat split; [constructor|exact H|intros ? []]|].
  inversion H as [|? ? Hn Hd]; subst. destruct (IH Hd) as (I1 & I2 & I3). rewrite in_app_iff in Hn. repeat split.
  - constructor; [intros Hx; apply Hn; now left|exact I1].
  - exact I2.
  - intros y [<-|Hy]; [intros Hx; apply Hn; now right|now apply I3].
Qed.

Lemma Forall_all {A} (P : A -> Prop) : (forall x, P x) -> forall l, Forall P l.
Proof. intros H l. apply Forall_forall. intros x _. apply H. Qed.
