(* Proofs about model/FragProg.v: loops and functions together (DESIGN 3, "FragProg").  The instrumented program, run under any schedule
   of activations of loop-test, loop-body and function guards, computes what the source computes and delivers the reference stream
   gated by the guards.  The right-hand-side layer (calls, arguments) is that of proofs/FragFunProofs.v. *)
From Coq Require Import List ZArith NArith Bool.
Import ListNotations.
From PyccoloV Require Import gen.PyAst gen.Ids gen.Events model.Tree model.Erase model.RwFrag model.FragSem model.FragFun model.FragProg
  proofs.ListFacts proofs.FragLog proofs.FragSemProofs proofs.FragFunProofs.
Local Open Scope N_scope.

(* statements of a function body / below the top level: no definitions *)
Fixpoint psrc_b (s : pstmt) : bool :=
  match s with
  | PExpr _ r | PAssign _ _ r => src_r r
  | PPass _ | PBreak _ | PContinue _ => true
  | PIf _ t b o | PWhile _ t b o => src_e t && forallb psrc_b b && forallb psrc_b o
  | PFor _ _ it b o => src_r it && forallb psrc_b b && forallb psrc_b o
  | PReturn _ None => true
  | PReturn _ (Some r) => src_r r
  | _ => false
  end.
Definition psrc_t (s : pstmt) : bool := match s with PDef _ _ _ body => forallb psrc_b body | _ => psrc_b s end.

Section IndP.
Variable P : pstmt -> Prop.
Hypothesis HExpr : forall n v, P (PExpr n v).
Hypothesis HAssign : forall n xs v, P (PAssign n xs v).
Hypothesis HPass : forall n, P (PPass n).
Hypothesis HIf : forall n t b o, Forall P b -> Forall P o -> P (PIf n t b o).
Hypothesis HWhile : forall n t b o, Forall P b -> Forall P o -> P (PWhile n t b o).
Hypothesis HFor : forall n x it b o, Forall P b -> Forall P o -> P (PFor n x it b o).
Hypothesis HBreak : forall n, P (PBreak n).
Hypothesis HContinue : forall n, P (PContinue n).
Hypothesis HReturn : forall n v, P (PReturn n v).
Hypothesis HDef : forall n name ps body, Forall P body -> P (PDef n name ps body).
Hypothesis HEmit : forall e n v g, P (PEmit e n v g).
Hypothesis HBefore : forall n tb own, Forall P tb -> Forall P own -> P (PBefore n tb own).
Hypothesis HWhileG : forall n g t' t b o, Forall P b -> Forall P o -> P (PWhileG n g t' t b o).
Hypothesis HGuardIf : forall g before i p, Forall P i -> Forall P p -> P (PGuardIf g before i p).
Hypothesis HTry : forall b fin, Forall P b -> Forall P fin -> P (PTry b fin).
Hypothesis HNameTry : forall b p, Forall P b -> Forall P p -> P (PNameTry b p).
Fixpoint pstmt_ind' (s : pstmt) : P s :=
  let go := fix go (u : list pstmt) : Forall P u := match u with [] => Forall_nil P | x :: u' => Forall_cons x (pstmt_ind' x) (go u') end in
  match s with
  | PExpr n v => HExpr n v
  | PAssign n xs v => HAssign n xs v
  | PPass n => HPass n
  | PIf n t b o => HIf n t b o (go b) (go o)
  | PWhile n t b o => HWhile n t b o (go b) (go o)
  | PFor n x it b o => HFor n x it b o (go b) (go o)
  | PBreak n => HBreak n
  | PContinue n => HContinue n
  | PReturn n v => HReturn n v
  | PDef n name ps body => HDef n name ps body (go body)
  | PEmit e n v g => HEmit e n v g
  | PBefore n tb own => HBefore n tb own (go tb) (go own)
  | PWhileG n g t' t b o => HWhileG n g t' t b o (go b) (go o)
  | PGuardIf g before i p => HGuardIf g before i p (go i) (go p)
  | PTry b fin => HTry b fin (go b) (go fin)
  | PNameTry b p => HNameTry b p (go b) (go p)
  end.
End IndP.

(* outside ProgProofs because the plain run uses these lemmas at another subscription, `no_events` *)
Section Psim.
Variable c : rcfg.
Notation fl := (filter_log c).

Definition psim (a : pres) (b : prres) : Prop := p_exc a = pr_exc b /\ p_env a = pr_env b /\ fl (p_log a) = fl (pr_log b).

Lemma psim_seq a b k k' p p' : fl p = fl p' -> psim a b ->
  (forall r sv q q', fl q = fl q' -> psim (k r sv q) (k' r q')) -> psim (pseq a k p) (prseq b k' p').
Proof.
  destruct a as [x r sv l], b as [x' r' l']. intros Hp (E1 & E2 & E3) Hk. cbn [p_exc p_env p_log pr_exc pr_env pr_log] in E1, E2, E3. subst x' r'.
  unfold pseq, prseq. cbn [p_exc p_env p_saved p_log pr_exc pr_env pr_log]. destruct x; [repeat split; exact E3|].
  destruct (Hk r sv _ _ (fl_pre c _ _ _ _ Hp E3)) as (F1 & F2 & F3). repeat split; try assumption. apply fl_pre; assumption.
Qed.

Lemma psim_pre a b l l' : fl l = fl l' -> psim a b ->
  psim {| p_exc := p_exc a; p_env := p_env a; p_saved := p_saved a; p_log := l ++ p_log a |}
       {| pr_exc := pr_exc b; pr_env := pr_env b; pr_log := l' ++ pr_log b |}.
Proof. intros Hl (E1 & E2 & E3). repeat split; try assumption. apply fl_pre; assumption. Qed.

Lemma psim_silent a b l : fl l = [] -> psim a b -> psim a {| pr_exc := pr_exc b; pr_env := pr_env b; pr_log := l ++ pr_log b |}.
Proof. intros Hl (E1 & E2 & E3). repeat split; try assumption. cbn [pr_log]. rewrite fl_app, Hl. exact E3. Qed.

(* the reference result of a guarded body: a's, between the before and after events when they are emitted *)
Definition prwrap (lb : list entry) (a : prres) (la : list entry) : prres := {| pr_exc := pr_exc a; pr_env := pr_env a; pr_log := lb ++ pr_log a ++ la |}.
Lemma prwrap_nil a : prwrap [] a [] = a.
Proof. destruct a. unfold prwrap. cbn. rewrite app_nil_r. reflexivity. Qed.

(* one iteration of a loop: A / a are the results of the body, K / K' the rest of the loop *)
Lemma psim_step A a lt lt' lb la K K' p p' : fl p = fl p' -> fl lt = fl lt' -> psim A (prwrap lb a la) ->
  (forall r sv q q', fl q = fl q' -> psim (K r sv q) (K' r q')) ->
  psim (match p_exc A with
        | Some PBrk => {| p_exc := None; p_env := p_env A; p_saved := p_saved A; p_log := lt ++ p_log A |}
        | None | Some PCnt =>
            let z := K (p_env A) (p_saved A) (p ++ lt ++ p_log A) in
            {| p_exc := p_exc z; p_env := p_env z; p_saved := p_saved z; p_log := lt ++ p_log A ++ p_log z |}
        | Some _ => {| p_exc := p_exc A; p_env := p_env A; p_saved := p_saved A; p_log := lt ++ p_log A |}
        end)
       (match pr_exc a with
        | Some PBrk => {| pr_exc := None; pr_env := pr_env a; pr_log := lt' ++ lb ++ pr_log a ++ la |}
        | None | Some PCnt =>
            let z := K' (pr_env a) (p' ++ lt' ++ lb ++ pr_log a ++ la) in
            {| pr_exc := pr_exc z; pr_env := pr_env z; pr_log := lt' ++ lb ++ pr_log a ++ la ++ pr_log z |}
        | Some _ => {| pr_exc := pr_exc a; pr_env := pr_env a; pr_log := lt' ++ lb ++ pr_log a ++ la |}
        end).
Proof.
  destruct A as [x r sv l], a as [x' r' l']. intros Hp Hlt (E1 & E2 & E3) HK. cbn [prwrap p_exc p_env p_saved p_log pr_exc pr_env pr_log] in *. subst x' r'.
  assert (H1 : fl (lt ++ l) = fl (lt' ++ lb ++ l' ++ la)) by (apply fl_pre; assumption).
  assert (HZ : psim (let z := K r sv (p ++ lt ++ l) in {| p_exc := p_exc z; p_env := p_env z; p_saved := p_saved z; p_log := lt ++ l ++ p_log z |})
                    (let z := K' r (p' ++ lt' ++ lb ++ l' ++ la) in {| pr_exc := pr_exc z; pr_env := pr_env z; pr_log := lt' ++ lb ++ l' ++ la ++ pr_log z |})).
  { destruct (HK r sv _ _ (fl_pre c _ _ _ _ Hp H1)) as (F1 & F2 & F3). repeat split; try assumption.
    cbn [p_log pr_log]. rewrite !fl_app in *. rewrite F3, app_assoc, H1, <- !app_assoc. reflexivity. }
  destruct x as [[e| |]|]; try exact HZ; repeat split; exact H1.
Qed.

(* the same for a `for` loop, whose iteration has no test and hands back the body's result unchanged *)
Lemma psim_fstep A a lb la K K' p p' : fl p = fl p' -> psim A (prwrap lb a la) ->
  (forall r sv q q', fl q = fl q' -> psim (K r sv q) (K' r q')) ->
  psim (match p_exc A with
        | Some PBrk => {| p_exc := None; p_env := p_env A; p_saved := p_saved A; p_log := p_log A |}
        | None | Some PCnt =>
            let z := K (p_env A) (p_saved A) (p ++ p_log A) in
            {| p_exc := p_exc z; p_env := p_env z; p_saved := p_saved z; p_log := p_log A ++ p_log z |}
        | Some _ => A
        end)
       (match pr_exc a with
        | Some PBrk => {| pr_exc := None; pr_env := pr_env a; pr_log := lb ++ pr_log a ++ la |}
        | None | Some PCnt =>
            let z := K' (pr_env a) (p' ++ lb ++ pr_log a ++ la) in
            {| pr_exc := pr_exc z; pr_env := pr_env z; pr_log := lb ++ pr_log a ++ la ++ pr_log z |}
        | Some _ => {| pr_exc := pr_exc a; pr_env := pr_env a; pr_log := lb ++ pr_log a ++ la |}
        end).
Proof. intros Hp HA HK. destruct A as [x r sv l]. exact (psim_step {| p_exc := x; p_env := r; p_saved := sv; p_log := l |} a [] [] lb la K K' p p' Hp eq_refl HA HK). Qed.

End Psim.

Section Prog.
Variable binop : N -> val -> val -> res val.
Variable cmpop : N -> val -> val -> res bool.
Variable unop : N -> val -> res val.
Variable truth : val -> bool.
Variable cval : scalar -> val.
Variable is_and : N -> bool.
Notation eval_e := (eval_e binop cmpop unop truth cval is_and).
Notation ref_e := (ref_e binop cmpop unop truth cval is_and).
Notation eval_r := (eval_r binop cmpop unop truth cval is_and).
Notation ref_r := (ref_r binop cmpop unop truth cval is_and).
Notation eval_src := (FragSemProofs.eval_src binop cmpop unop truth cval is_and).

(* a section of its own: the plain run (Section Plain) rewrites with these equations at its own configuration c0, pol0 *)
Section Exec.
Variable c : rcfg.
Variable pol : list entry -> guard -> bool.
Variable fuel : nat.
Variable call : callT.
Notation X_s := (pexec_s binop cmpop unop truth cval is_and c pol fuel call).
Notation X_l := (pexec_l binop cmpop unop truth cval is_and c pol fuel call).
Notation pgon := (pgon c pol).

Definition ploop (sc : scope) (glob : env) (test : env -> list entry -> res val * list entry) (b o : list pstmt) :=
  fix loop (f : nat) (r : env) (saved : val) (pre : list entry) {struct f} : pres :=
    match f with
    | O => {| p_exc := Some (PO FFuel); p_env := r; p_saved := saved; p_log := [] |}
    | S f' =>
        let '(q, lt) := test r pre in
        match q with
        | Err e => {| p_exc := Some (PO (FX e)); p_env := r; p_saved := saved; p_log := lt |}
        | Ok vt =>
            if truth vt then
              let a := X_l sc glob b r saved (pre ++ lt) in
              match p_exc a with
              | Some PBrk => {| p_exc := None; p_env := p_env a; p_saved := p_saved a; p_log := lt ++ p_log a |}
              | None | Some PCnt =>
                  let z := loop f' (p_env a) (p_saved a) (pre ++ lt ++ p_log a) in
                  {| p_exc := p_exc z; p_env := p_env z; p_saved := p_saved z; p_log := lt ++ p_log a ++ p_log z |}
              | Some _ => {| p_exc := p_exc a; p_env := p_env a; p_saved := p_saved a; p_log := lt ++ p_log a |}
              end
            else let a := X_l sc glob o r saved (pre ++ lt) in
                 {| p_exc := p_exc a; p_env := p_env a; p_saved := p_saved a; p_log := lt ++ p_log a |}
        end
    end.
Definition pfloop (sc : scope) (glob : env) (x : N) (b o : list pstmt) :=
  fix floop (k : nat) (i : Z) (r : env) (saved : val) (pre : list entry) {struct k} : pres :=
    match k with
    | O => X_l sc glob o r saved pre
    | S k' =>
        let a := X_l sc glob b (upd r x (VInt i)) saved pre in
        match p_exc a with
        | Some PBrk => {| p_exc := None; p_env := p_env a; p_saved := p_saved a; p_log := p_log a |}
        | None | Some PCnt =>
            let z := floop k' (i + 1)%Z (p_env a) (p_saved a) (pre ++ p_log a) in
            {| p_exc := p_exc z; p_env := p_env z; p_saved := p_saved z; p_log := p_log a ++ p_log z |}
        | Some _ => a
        end
    end.
(* a twin of `pexec_s` (see `gexec` in FragSemProofs.v); rewrite with `pexec_unfold`, `pexec_PWhile` / `pexec_PWhileG` / `pexec_PFor`, `pexec_l_cons`.
   The loops exist in two forms: `ploop`, `pfloop` (and `prloop`, `prfloop`, `ploop0`, `pfloop0` below) are the form the loop lemmas are stated in;
   `ploop_of`, `pfloop_of`, `prloop_of`, `prfloop_of` are the same text with the list evaluator as a parameter, equal to them by conversion.
   An edit to one copy shows up as a conversion error in `pexec_PWhile` / `pexec_PFor`, `pref_unfold` or `pplain_stmt`. *)
Definition pexec_run (xs : pstmt -> env -> val -> list entry -> pres) :=
  fix exec_l (u : list pstmt) (r : env) (saved : val) (pre : list entry) {struct u} : pres :=
    match u with
    | [] => {| p_exc := None; p_env := r; p_saved := saved; p_log := [] |}
    | x :: u' => pseq (xs x r saved pre) (exec_l u') pre
    end.
Definition ploop_of (xl : list pstmt -> env -> val -> list entry -> pres) (test : env -> list entry -> res val * list entry) (b o : list pstmt) :=
  fix loop (f : nat) (r : env) (saved : val) (pre : list entry) {struct f} : pres :=
    match f with
    | O => {| p_exc := Some (PO FFuel); p_env := r; p_saved := saved; p_log := [] |}
    | S f' =>
        let '(q, lt) := test r pre in
        match q with
        | Err e => {| p_exc := Some (PO (FX e)); p_env := r; p_saved := saved; p_log := lt |}
        | Ok vt =>
            if truth vt then
              let a := xl b r saved (pre ++ lt) in
              match p_exc a with
              | Some PBrk => {| p_exc := None; p_env := p_env a; p_saved := p_saved a; p_log := lt ++ p_log a |}
              | None | Some PCnt =>
                  let z := loop f' (p_env a) (p_saved a) (pre ++ lt ++ p_log a) in
                  {| p_exc := p_exc z; p_env := p_env z; p_saved := p_saved z; p_log := lt ++ p_log a ++ p_log z |}
              | Some _ => {| p_exc := p_exc a; p_env := p_env a; p_saved := p_saved a; p_log := lt ++ p_log a |}
              end
            else let a := xl o r saved (pre ++ lt) in
                 {| p_exc := p_exc a; p_env := p_env a; p_saved := p_saved a; p_log := lt ++ p_log a |}
        end
    end.
Definition pfloop_of (xl : list pstmt -> env -> val -> list entry -> pres) (x : N) (b o : list pstmt) :=
  fix floop (k : nat) (i : Z) (r : env) (saved : val) (pre : list entry) {struct k} : pres :=
    match k with
    | O => xl o r saved pre
    | S k' =>
        let a := xl b (upd r x (VInt i)) saved pre in
        match p_exc a with
        | Some PBrk => {| p_exc := None; p_env := p_env a; p_saved := p_saved a; p_log := p_log a |}
        | None | Some PCnt =>
            let z := floop k' (i + 1)%Z (p_env a) (p_saved a) (pre ++ p_log a) in
            {| p_exc := p_exc z; p_env := p_env z; p_saved := p_saved z; p_log := p_log a ++ p_log z |}
        | Some _ => a
        end
    end.
Definition pexec_body (xl : list pstmt -> env -> val -> list entry -> pres) (sc : scope) (glob : env) (s : pstmt) (r : env) (saved : val) (pre : list entry) : pres :=
  match s with
  | PExpr _ v =>
      let '(q, sv, l) := eval_r call (look sc glob r) (globs sc glob r) v saved pre in
      {| p_exc := pexc_of q; p_env := r; p_saved := sv; p_log := l |}
  | PAssign _ xs v =>
      let '(q, sv, l) := eval_r call (look sc glob r) (globs sc glob r) v saved pre in
      match q with
      | ROk x => {| p_exc := None; p_env := fold_left (fun r' y => upd r' y x) xs r; p_saved := sv; p_log := l |}
      | RErr e => {| p_exc := Some (PO e); p_env := r; p_saved := sv; p_log := l |}
      end
  | PPass _ => {| p_exc := None; p_env := r; p_saved := saved; p_log := [] |}
  | PIf _ t b o =>
      let '(q, l) := eval_e t (look sc glob r) in
      match q with
      | Ok vt => let a := xl (if truth vt then b else o) r saved (pre ++ l) in
                 {| p_exc := p_exc a; p_env := p_env a; p_saved := p_saved a; p_log := l ++ p_log a |}
      | Err e => {| p_exc := Some (PO (FX e)); p_env := r; p_saved := saved; p_log := l |}
      end
  | PWhile _ t b o => ploop_of xl (fun r _ => eval_e t (look sc glob r)) b o fuel r saved pre
  | PWhileG _ g t' t b o => ploop_of xl (fun r pre => if pgon pre g then eval_e t' (look sc glob r) else eval_e t (look sc glob r)) b o fuel r saved pre
  | PFor _ x it b o =>
      let '(q, sv, l) := eval_r call (look sc glob r) (globs sc glob r) it saved pre in
      match q with
      | ROk (VRange lo hi) => let z := pfloop_of xl x b o (Z.to_nat (hi - lo)) lo r sv (pre ++ l) in
                              {| p_exc := p_exc z; p_env := p_env z; p_saved := p_saved z; p_log := l ++ p_log z |}
      | ROk _ => {| p_exc := Some (PO (FX ETypeError)); p_env := r; p_saved := sv; p_log := l |}
      | RErr e => {| p_exc := Some (PO e); p_env := r; p_saved := sv; p_log := l |}
      end
  | PBreak _ => {| p_exc := Some PBrk; p_env := r; p_saved := saved; p_log := [] |}
  | PContinue _ => {| p_exc := Some PCnt; p_env := r; p_saved := saved; p_log := [] |}
  | PReturn _ None => {| p_exc := Some (PO (FRet VNone)); p_env := r; p_saved := saved; p_log := [] |}
  | PReturn _ (Some v) =>
      let '(q, sv, l) := eval_r call (look sc glob r) (globs sc glob r) v saved pre in
      {| p_exc := Some (PO (match q with ROk x => FRet x | RErr e => e end)); p_env := r; p_saved := sv; p_log := l |}
  | PDef n name _ _ => {| p_exc := None; p_env := upd r name (VFun n); p_saved := saved; p_log := [] |}
  | PEmit e n None _ =>
      {| p_exc := None; p_env := r; p_saved := (if event_eqb e E_after_stmt then VNone else saved); p_log := [(e, n, Some VNone)] |}
  | PEmit e n (Some (RExp (XLoadSaved _))) _ =>
      {| p_exc := None; p_env := r; p_saved := VNone; p_log := [(e, n, Some saved)] |}
  | PEmit e n (Some v) _ =>
      let '(q, sv, l) := eval_r call (look sc glob r) (globs sc glob r) v saved pre in
      match q with
      | ROk x => {| p_exc := None; p_env := r; p_saved := (if event_eqb e E_after_stmt then x else sv); p_log := l ++ [(e, n, Some x)] |}
      | RErr x => {| p_exc := Some (PO x); p_env := r; p_saved := sv; p_log := l |}
      end
  | PBefore n _ own =>
      let a := xl own r saved (pre ++ [(E_before_stmt, n, Some VNone)]) in
      {| p_exc := p_exc a; p_env := p_env a; p_saved := p_saved a; p_log := (E_before_stmt, n, Some VNone) :: p_log a |}
  | PGuardIf g before i p =>
      if pgon pre g then
        match before with
        | Some n => let a := xl i r saved (pre ++ [(before_event g, n, Some (cval (SBool true)))]) in
                    {| p_exc := p_exc a; p_env := p_env a; p_saved := p_saved a; p_log := (before_event g, n, Some (cval (SBool true))) :: p_log a |}
        | None => xl i r saved pre
        end
      else xl p r saved pre
  | PTry b fin =>
      let a := xl b r saved pre in
      let z := xl fin (p_env a) (p_saved a) (pre ++ p_log a) in
      {| p_exc := match p_exc z with Some x => Some x | None => p_exc a end;
         p_env := p_env z; p_saved := p_saved z; p_log := p_log a ++ p_log z |}
  | PNameTry b _ => xl b r saved pre
  end.
Fixpoint pexec_s' (sc : scope) (glob : env) (s : pstmt) (r : env) (saved : val) (pre : list entry) {struct s} : pres :=
  pexec_body (pexec_run (pexec_s' sc glob)) sc glob s r saved pre.
Lemma pexec_fix : X_s = pexec_s'.
Proof. reflexivity. Qed.
Lemma pexec_unfold sc glob s r sv pre : X_s sc glob s r sv pre = pexec_body (X_l sc glob) sc glob s r sv pre.
Proof. change (X_l sc glob) with (pexec_run (X_s sc glob)). rewrite pexec_fix. destruct s; reflexivity. Qed.

Lemma pexec_PWhile sc glob n t b o r sv pre :
  X_s sc glob (PWhile n t b o) r sv pre = ploop sc glob (fun r _ => eval_e t (look sc glob r)) b o fuel r sv pre.
Proof. apply pexec_unfold. Qed.
Lemma pexec_PWhileG sc glob n g t' t b o r sv pre :
  X_s sc glob (PWhileG n g t' t b o) r sv pre =
  ploop sc glob (fun r pre => if pgon pre g then eval_e t' (look sc glob r) else eval_e t (look sc glob r)) b o fuel r sv pre.
Proof. apply pexec_unfold. Qed.
Lemma pexec_PFor sc glob n x it b o r sv pre :
  X_s sc glob (PFor n x it b o) r sv pre =
  let '(q, sv', l) := eval_r call (look sc glob r) (globs sc glob r) it sv pre in
  match q with
  | ROk (VRange lo hi) => let z := pfloop sc glob x b o (Z.to_nat (hi - lo)) lo r sv' (pre ++ l) in
                          {| p_exc := p_exc z; p_env := p_env z; p_saved := p_saved z; p_log := l ++ p_log z |}
  | ROk _ => {| p_exc := Some (PO (FX ETypeError)); p_env := r; p_saved := sv'; p_log := l |}
  | RErr e => {| p_exc := Some (PO e); p_env := r; p_saved := sv'; p_log := l |}
  end.
Proof. apply pexec_unfold. Qed.
(* computing on the model is fine here: a cons carries no `let` copies *)
Lemma pexec_l_cons sc glob x u r sv pre : X_l sc glob (x :: u) r sv pre = pseq (X_s sc glob x r sv pre) (X_l sc glob u) pre.
Proof. cbn [FragProg.pexec_l]. exact eq_refl. Qed.

Lemma pseq_ext a k k' pre : (forall r sv q, k r sv q = k' r sv q) -> pseq a k pre = pseq a k' pre.
Proof. intros H. unfold pseq. rewrite H. reflexivity. Qed.
Lemma pseq_assoc a k k' pre : pseq (pseq a k pre) k' pre = pseq a (fun r sv q => pseq (k r sv q) k' q) pre.
Proof.
  destruct a as [[e|] r sv l]; unfold pseq; cbn [p_exc p_env p_saved p_log]; [reflexivity|].
  destruct (p_exc (k r sv (pre ++ l))) eqn:E; cbn [p_exc p_env p_saved p_log]; rewrite ?E, ?app_assoc; reflexivity.
Qed.

Lemma pexec_l_single sc glob x r sv pre : X_l sc glob [x] r sv pre = X_s sc glob x r sv pre.
Proof. rewrite pexec_l_cons. destruct (X_s sc glob x r sv pre) as [[e|] r0 sv0 l]; unfold pseq; cbn; rewrite ?app_nil_r; reflexivity. Qed.
Lemma pexec_l_app sc glob u w : forall r sv pre, X_l sc glob (u ++ w) r sv pre = pseq (X_l sc glob u r sv pre) (X_l sc glob w) pre.
Proof.
  induction u as [|x u IH]; intros r sv pre.
  - unfold pseq. cbn. rewrite app_nil_r. destruct (X_l sc glob w r sv pre); reflexivity.
  - cbn [app]. rewrite !pexec_l_cons, pseq_assoc. apply pseq_ext. exact IH.
Qed.

Lemma pexec_PEmit_some e n v g sc glob r sv pre : (forall k, v <> RExp (XLoadSaved k)) ->
  X_s sc glob (PEmit e n (Some v) g) r sv pre =
  let '(q, sv', l) := eval_r call (look sc glob r) (globs sc glob r) v sv pre in
  match q with
  | ROk x => {| p_exc := None; p_env := r; p_saved := (if event_eqb e E_after_stmt then x else sv'); p_log := l ++ [(e, n, Some x)] |}
  | RErr x => {| p_exc := Some (PO x); p_env := r; p_saved := sv'; p_log := l |}
  end.
Proof. intros H. destruct v as [v| | |]; try reflexivity. destruct v as [| | | | | | | | | | |k|]; try reflexivity. exfalso. exact (H k eq_refl). Qed.
End Exec.

Section ProgProofs.
Variable c : rcfg.
Variable pol : list entry -> guard -> bool.
Variable fuel : nat.
Variable ge : bool.

Notation pexec_s := (pexec_s binop cmpop unop truth cval is_and c pol fuel).
Notation pexec_l := (pexec_l binop cmpop unop truth cval is_and c pol fuel).
Notation pref_s := (pref_s binop cmpop unop truth cval is_and c pol fuel ge).
Notation pref_l := (pref_l binop cmpop unop truth cval is_and c pol fuel ge).
Notation pgon := (pgon c pol).
Notation fl := (filter_log c).
Notation psim := (psim c).

Lemma pgon_fl p p' g : fl p = fl p' -> pgon p g = pgon p' g.
Proof. unfold FragProg.pgon. intros ->. reflexivity. Qed.

(* the rewriter `pis`, cut where its `let`s are, with the recursive call as a parameter.  `pmain` has to repeat `pis` up to unfolding: hence the
   `if ge` outside the `while` / `for`, though only their bodies differ (main_exec and pmain_for move it inside) *)
Definition finally_emit (ea : event) (n : N) (gk : option (option guard)) (B : list pstmt) : list pstmt :=
  if sub c ea then [PTry B [PEmit ea n None gk]] else B.
Definition guarded (G : bool) (g : guard) (n : N) (B P : list pstmt) : list pstmt :=
  if G then [PGuardIf g (if sub c (before_event g) then Some n else None) B P]
  else (if sub c (before_event g) then [PEmit (before_event g) n (Some (RExp (XConst 0 (SBool true)))) None] else []) ++ B.
Definition pmain (rec : pstmt -> list pstmt) (s : pstmt) : pstmt :=
  match s with
  | PExpr n r => PExpr n (wrapR c E_after_expr_stmt n (ir c r))
  | PAssign n xs r => PAssign n xs (wrapR c E_after_assign_rhs (rid r) (defR c E_before_assign_rhs (rid r) (ir c r)))
  | PIf n t b o => PIf n (wrap c E_after_if_test n (ie c t)) (flat_map rec b) (flat_map rec o)
  | PWhile n t b o =>
      let t' := wrap c E_after_while_test n (ie c t) in
      let after := finally_emit E_after_while_loop_iter n (Some (if ge then Some (GBody n) else None)) (flat_map rec b) in
      if ge then PWhileG n (GTest n) t' t (guarded true (GBody n) n after (map (ppr ge) b)) (flat_map rec o)
      else PWhile n t' (guarded false (GBody n) n after (map (ppr ge) b)) (flat_map rec o)
  | PFor n x it b o =>
      let it' := wrapR c E_after_for_iter (rid it) (defR c E_before_for_iter (rid it) (ir c it)) in
      let after := finally_emit E_after_for_loop_iter n (Some (if ge then Some (GFBody n) else None)) (flat_map rec b) in
      if ge then PFor n x it' (guarded true (GFBody n) n after (map (ppr ge) b)) (flat_map rec o)
      else PFor n x it' (guarded false (GFBody n) n after (map (ppr ge) b)) (flat_map rec o)
  | PReturn n (Some r) => PReturn n (Some (wrapR c E_after_return (rid r) (defR c E_before_return (rid r) (ir c r))))
  | PDef n name ps body =>
      PDef n name ps
        [PNameTry (guarded ge (GFun n) n (finally_emit E_after_function_execution n (Some (if ge then Some (GFun n) else None)) (flat_map rec body)) body) body]
  | other => other
  end.
Definition p_is_expr (s : pstmt) : bool := match s with PExpr _ _ => true | _ => false end.
Definition p_is_return (s : pstmt) : bool := match s with PReturn _ _ => true | _ => false end.
Definition pmvalue (main : pstmt) : rhs := match main with PExpr _ v => v | _ => RExp XThunkCall end.
Definition pwants (m : bool) : bool := sub c E_after_stmt || (sub c E_after_module_stmt && m).
Definition pown (m : bool) (s main : pstmt) : list pstmt :=
  match s with
  | PReturn _ _ => [main]
  | _ => pmain_and_after (pwants m) m (pid s) main (p_is_expr s) (pmvalue main)
  end.
Definition pthunk_branch (m : bool) (n : N) : list pstmt :=
  pmain_and_after (pwants m) m n (PExpr 0 (RExp XThunkCall)) true (RExp XThunkCall).
Definition stmt_wrap (m : bool) (n : N) (own : list pstmt) : list pstmt :=
  let expanded := if sub c E_before_stmt then [PBefore n (pthunk_branch m n) own] else own in
  if m && sub c E_after_module_stmt then expanded ++ [PEmit E_after_module_stmt n (Some (RExp (XLoadSaved n))) None] else expanded.

(* a twin of `pis` (see `gexec` in FragSemProofs.v); rewrite with `pis_unfold` *)
Fixpoint pis' (m : bool) (s : pstmt) {struct s} : list pstmt := stmt_wrap m (pid s) (pown m s (pmain (pis' false) s)).
Lemma pis_fix : pis c ge = pis'.
Proof. reflexivity. Qed.

Definition pmain_of (s : pstmt) : pstmt := pmain (pis c ge false) s.
Definition pown_of (m : bool) (s : pstmt) : list pstmt := pown m s (pmain_of s).
Lemma pis_unfold m s : pis c ge m s = stmt_wrap m (pid s) (pown_of m s).
Proof. unfold pown_of, pmain_of. rewrite pis_fix. destruct s; reflexivity. Qed.
Lemma pown_of_eq m s :
  pown_of m s = if p_is_return s then [pmain_of s] else pmain_and_after (pwants m) m (pid s) (pmain_of s) (p_is_expr s) (pmvalue (pmain_of s)).
Proof. destruct s; reflexivity. Qed.

Section WithCalls.
Variable call : callT.
Variable callr : callR.
Hypothesis call_ok : call_sim c call callr.

Notation X_s := (pexec_s call).
Notation X_l := (pexec_l call).
Notation R_s := (pref_s callr).
Notation R_l := (pref_l callr).
Notation ploop := (ploop c pol fuel call).
Notation pfloop := (pfloop c pol fuel call).

Definition ebw (n : N) : entry := (E_before_while_loop_body, n, Some (cval (SBool true))).
Definition eaw (n : N) : entry := (E_after_while_loop_iter, n, Some VNone).
Definition prloop (quiet : bool) (sc : scope) (glob : env) (n : N) (t : texpr) (b o : list pstmt) :=
  fix loop (f : nat) (r : env) (pre : list entry) {struct f} : prres :=
    match f with
    | O => {| pr_exc := Some (PO FFuel); pr_env := r; pr_log := [] |}
    | S f' =>
        let '(q, l) := ref_e t (look sc glob r) in
        let loud_t := negb quiet && (negb ge || pgon pre (GTest n)) in
        let lt := if loud_t then l ++ emitted E_after_while_test n q else [] in
        match q with
        | Err e => {| pr_exc := Some (PO (FX e)); pr_env := r; pr_log := lt |}
        | Ok vt =>
            if truth vt then
              let loud_b := negb quiet && (negb ge || pgon (pre ++ lt) (GBody n)) in
              let lb := if loud_b then [ebw n] else [] in
              let a := R_l (negb loud_b) false sc glob b r (pre ++ lt ++ lb) in
              let la := if loud_b then [eaw n] else [] in
              match pr_exc a with
              | Some PBrk => {| pr_exc := None; pr_env := pr_env a; pr_log := lt ++ lb ++ pr_log a ++ la |}
              | None | Some PCnt =>
                  let z := loop f' (pr_env a) (pre ++ lt ++ lb ++ pr_log a ++ la) in
                  {| pr_exc := pr_exc z; pr_env := pr_env z; pr_log := lt ++ lb ++ pr_log a ++ la ++ pr_log z |}
              | Some _ => {| pr_exc := pr_exc a; pr_env := pr_env a; pr_log := lt ++ lb ++ pr_log a ++ la |}
              end
            else let a := R_l quiet false sc glob o r (pre ++ lt) in
                 {| pr_exc := pr_exc a; pr_env := pr_env a; pr_log := lt ++ pr_log a |}
        end
    end.

Definition ebf (n : N) : entry := (E_before_for_loop_body, n, Some (cval (SBool true))).
Definition eaf (n : N) : entry := (E_after_for_loop_iter, n, Some VNone).
Definition prfloop (quiet : bool) (sc : scope) (glob : env) (n x : N) (b o : list pstmt) :=
  fix floop (k : nat) (i : Z) (r : env) (pre : list entry) {struct k} : prres :=
    match k with
    | O => R_l quiet false sc glob o r pre
    | S k' =>
        let loud_b := negb quiet && (negb ge || pgon pre (GFBody n)) in
        let lb := if loud_b then [ebf n] else [] in
        let a := R_l (negb loud_b) false sc glob b (upd r x (VInt i)) (pre ++ lb) in
        let la := if loud_b then [eaf n] else [] in
        match pr_exc a with
        | Some PBrk => {| pr_exc := None; pr_env := pr_env a; pr_log := lb ++ pr_log a ++ la |}
        | None | Some PCnt =>
            let z := floop k' (i + 1)%Z (pr_env a) (pre ++ lb ++ pr_log a ++ la) in
            {| pr_exc := pr_exc z; pr_env := pr_env z; pr_log := lb ++ pr_log a ++ la ++ pr_log z |}
        | Some _ => {| pr_exc := pr_exc a; pr_env := pr_env a; pr_log := lb ++ pr_log a ++ la |}
        end
    end.

(* a twin of `pref_s` (see `gexec` in FragSemProofs.v), in the pieces pref_run, prloop_of, prfloop_of, pbody, pfinish; rewrite with `pref_unfold`, `pref_l_cons` *)
Definition pref_run (rs : pstmt -> env -> list entry -> prres) :=
  fix ref_l (u : list pstmt) (r : env) (pre : list entry) {struct u} : prres :=
    match u with
    | [] => {| pr_exc := None; pr_env := r; pr_log := [] |}
    | x :: u' => prseq (rs x r pre) (ref_l u') pre
    end.
Definition prloop_of (rl : bool -> scope -> env -> list pstmt -> env -> list entry -> prres) (quiet : bool) (sc : scope) (glob : env) (n : N) (t : texpr) (b o : list pstmt) :=
  fix loop (f : nat) (r : env) (pre : list entry) {struct f} : prres :=
    match f with
    | O => {| pr_exc := Some (PO FFuel); pr_env := r; pr_log := [] |}
    | S f' =>
        let '(q, l) := ref_e t (look sc glob r) in
        let loud_t := negb quiet && (negb ge || pgon pre (GTest n)) in
        let lt := if loud_t then l ++ emitted E_after_while_test n q else [] in
        match q with
        | Err e => {| pr_exc := Some (PO (FX e)); pr_env := r; pr_log := lt |}
        | Ok vt =>
            if truth vt then
              let loud_b := negb quiet && (negb ge || pgon (pre ++ lt) (GBody n)) in
              let lb := if loud_b then [ebw n] else [] in
              let a := rl (negb loud_b) sc glob b r (pre ++ lt ++ lb) in
              let la := if loud_b then [eaw n] else [] in
              match pr_exc a with
              | Some PBrk => {| pr_exc := None; pr_env := pr_env a; pr_log := lt ++ lb ++ pr_log a ++ la |}
              | None | Some PCnt =>
                  let z := loop f' (pr_env a) (pre ++ lt ++ lb ++ pr_log a ++ la) in
                  {| pr_exc := pr_exc z; pr_env := pr_env z; pr_log := lt ++ lb ++ pr_log a ++ la ++ pr_log z |}
              | Some _ => {| pr_exc := pr_exc a; pr_env := pr_env a; pr_log := lt ++ lb ++ pr_log a ++ la |}
              end
            else let a := rl quiet sc glob o r (pre ++ lt) in
                 {| pr_exc := pr_exc a; pr_env := pr_env a; pr_log := lt ++ pr_log a |}
        end
    end.
Definition prfloop_of (rl : bool -> scope -> env -> list pstmt -> env -> list entry -> prres) (quiet : bool) (sc : scope) (glob : env) (n x : N) (b o : list pstmt) :=
  fix floop (k : nat) (i : Z) (r : env) (pre : list entry) {struct k} : prres :=
    match k with
    | O => rl quiet sc glob o r pre
    | S k' =>
        let loud_b := negb quiet && (negb ge || pgon pre (GFBody n)) in
        let lb := if loud_b then [ebf n] else [] in
        let a := rl (negb loud_b) sc glob b (upd r x (VInt i)) (pre ++ lb) in
        let la := if loud_b then [eaf n] else [] in
        match pr_exc a with
        | Some PBrk => {| pr_exc := None; pr_env := pr_env a; pr_log := lb ++ pr_log a ++ la |}
        | None | Some PCnt =>
            let z := floop k' (i + 1)%Z (pr_env a) (pre ++ lb ++ pr_log a ++ la) in
            {| pr_exc := pr_exc z; pr_env := pr_env z; pr_log := lb ++ pr_log a ++ la ++ pr_log z |}
        | Some _ => {| pr_exc := pr_exc a; pr_env := pr_env a; pr_log := lb ++ pr_log a ++ la |}
        end
    end.
Definition pbody (rl : bool -> scope -> env -> list pstmt -> env -> list entry -> prres)
    (lw : bool -> scope -> env -> N -> texpr -> list pstmt -> list pstmt -> nat -> env -> list entry -> prres)
    (lf : bool -> scope -> env -> N -> N -> list pstmt -> list pstmt -> nat -> Z -> env -> list entry -> prres)
    (quiet : bool) (sc : scope) (glob : env) (s : pstmt) (r : env) (pre0 : list entry) : option pexc * env * list entry * val :=
  let say := fsay quiet in
  let n := pid s in
  match s with
  | PExpr _ v => let '(q, l) := ref_r callr quiet (look sc glob r) (globs sc glob r) v pre0 in
                 (pexc_of q, r, l ++ say (emitted_r E_after_expr_stmt n q), match q with ROk x => x | RErr _ => VNone end)
  | PAssign _ xs v =>
      let '(q, l) := ref_r callr quiet (look sc glob r) (globs sc glob r) v (pre0 ++ say [(E_before_assign_rhs, rid v, None)]) in
      (pexc_of q, match q with ROk x => fold_left (fun r' y => upd r' y x) xs r | RErr _ => r end,
       say [(E_before_assign_rhs, rid v, None)] ++ l ++ say (emitted_r E_after_assign_rhs (rid v) q), VNone)
  | PPass _ => (None, r, [], VNone)
  | PBreak _ => (Some PBrk, r, [], VNone)
  | PContinue _ => (Some PCnt, r, [], VNone)
  | PIf _ t b o =>
      let '(q, l) := ref_e t (look sc glob r) in
      match q with
      | Ok vt => let l1 := say (l ++ [(E_after_if_test, n, Some vt)]) in
                 let a := rl quiet sc glob (if truth vt then b else o) r (pre0 ++ l1) in
                 (pr_exc a, pr_env a, l1 ++ pr_log a, VNone)
      | Err e => (Some (PO (FX e)), r, say l, VNone)
      end
  | PWhile _ t b o => let z := lw quiet sc glob n t b o fuel r pre0 in (pr_exc z, pr_env z, pr_log z, VNone)
  | PFor _ x it b o =>
      let '(q, l) := ref_r callr quiet (look sc glob r) (globs sc glob r) it (pre0 ++ say [(E_before_for_iter, rid it, None)]) in
      let lit := say [(E_before_for_iter, rid it, None)] ++ l ++ say (emitted_r E_after_for_iter (rid it) q) in
      match q with
      | ROk (VRange lo hi) => let z := lf quiet sc glob n x b o (Z.to_nat (hi - lo)) lo r (pre0 ++ lit) in (pr_exc z, pr_env z, lit ++ pr_log z, VNone)
      | ROk _ => (Some (PO (FX ETypeError)), r, lit, VNone)
      | RErr e => (Some (PO e), r, lit, VNone)
      end
  | PReturn _ None => (Some (PO (FRet VNone)), r, [], VNone)
  | PReturn _ (Some v) =>
      let '(q, l) := ref_r callr quiet (look sc glob r) (globs sc glob r) v (pre0 ++ say [(E_before_return, rid v, None)]) in
      (Some (PO (match q with ROk x => FRet x | RErr e => e end)), r,
       say [(E_before_return, rid v, None)] ++ l ++ say (emitted_r E_after_return (rid v) q), VNone)
  | PDef n name _ _ => (None, upd r name (VFun n), [], VNone)
  | _ => (Some (PO (FX ETypeError)), r, [], VNone)
  end.
Definition pbody_of := pbody (fun q => R_l q false) prloop prfloop.

Definition pfinish (quiet m : bool) (n : N) (body : option pexc * env * list entry * val) : prres :=
  let '(x, r', l, v) := body in
  let after_value := if m then v else VNone in
  {| pr_exc := x; pr_env := r';
     pr_log := fsay quiet [(E_before_stmt, n, Some VNone)] ++ l ++
               match x with
               | Some _ => []
               | None => fsay quiet ((E_after_stmt, n, Some after_value) :: (if m then [(E_after_module_stmt, n, Some after_value)] else []))
               end |}.
Fixpoint pref_s' (quiet m : bool) (sc : scope) (glob : env) (s : pstmt) (r : env) (pre : list entry) {struct s} : prres :=
  let rl := fun q sc glob => pref_run (pref_s' q false sc glob) in
  pfinish quiet m (pid s) (pbody rl (prloop_of rl) (prfloop_of rl) quiet sc glob s r (pre ++ fsay quiet [(E_before_stmt, pid s, Some VNone)])).
Lemma pref_fix : R_s = pref_s'.
Proof. reflexivity. Qed.
Lemma pref_unfold quiet m sc glob s r pre : R_s quiet m sc glob s r pre =
  pfinish quiet m (pid s) (pbody_of quiet sc glob s r (pre ++ fsay quiet [(E_before_stmt, pid s, Some VNone)])).
Proof.
  change pbody_of with (let rl := fun q sc glob => pref_run (R_s q false sc glob) in pbody rl (prloop_of rl) (prfloop_of rl)).
  rewrite pref_fix. destruct s; reflexivity.
Qed.

Lemma pref_l_cons quiet m sc glob x u r pre :
  R_l quiet m sc glob (x :: u) r pre = prseq (R_s quiet m sc glob x r pre) (R_l quiet m sc glob u) pre.
Proof. cbn [FragProg.pref_l]. exact eq_refl. Qed.

Definition lists_sim (q : bool) (sc : scope) (glob : env) (B b : list pstmt) : Prop := forall r sv p p', fl p = fl p' ->
  psim (X_l sc glob B r sv p) (R_l q false sc glob b r p').
Definition iter_ok (q : bool) (sc : scope) (glob : env) (g : guard) (eb ea : entry) (B b : list pstmt) : Prop := forall r sv p p', fl p = fl p' ->
  let LB := negb q && (negb ge || pgon p' g) in
  psim (X_l sc glob B r sv p) (prwrap (if LB then [eb] else []) (R_l (negb LB) false sc glob b r (p' ++ if LB then [eb] else [])) (if LB then [ea] else [])).

Lemma iter_quiet sc glob g eb ea B b : lists_sim true sc glob B b -> iter_ok true sc glob g eb ea B b.
Proof. intros H r sv p p' Hp. cbn [negb andb]. rewrite app_nil_r, prwrap_nil. apply H. exact Hp. Qed.

Lemma ploop_sim q sc glob n t b o test B O :
  (forall r p p', fl p = fl p' ->
     fst (test r p) = fst (ref_e t (look sc glob r)) /\
     fl (snd (test r p)) = fl (if negb q && (negb ge || pgon p' (GTest n))
                               then snd (ref_e t (look sc glob r)) ++ emitted E_after_while_test n (fst (ref_e t (look sc glob r))) else [])) ->
  iter_ok q sc glob (GBody n) (ebw n) (eaw n) B b -> lists_sim q sc glob O o ->
  forall f r sv p p', fl p = fl p' -> psim (ploop sc glob test B O f r sv p) (prloop q sc glob n t b o f r p').
Proof.
  intros Htest HB HO. induction f as [|f IH]; intros r sv p p' Hp; [repeat split|].
  cbn [ploop prloop]. destruct (Htest r p p' Hp) as [T1 T2].
  destruct (test r p) as [x LT], (ref_e t (look sc glob r)) as [x' l]. cbn [fst snd] in T1, T2. subst x'.
  destruct x as [vt|e]; [|repeat split; exact T2].
  assert (Hq := fl_pre c _ _ _ _ Hp T2).
  destruct (truth vt).
  - rewrite (app_assoc p'). apply psim_step; [exact Hp|exact T2|apply HB; exact Hq|exact IH].
  - apply psim_pre; [exact T2|apply HO; exact Hq].
Qed.

Lemma pfloop_sim q sc glob n x b o B O : iter_ok q sc glob (GFBody n) (ebf n) (eaf n) B b -> lists_sim q sc glob O o ->
  forall k i r sv p p', fl p = fl p' -> psim (pfloop sc glob x B O k i r sv p) (prfloop q sc glob n x b o k i r p').
Proof.
  intros HB HO. induction k as [|k IH]; intros i r sv p p' Hp; cbn [pfloop prfloop]; [apply HO; exact Hp|].
  apply psim_fstep; [exact Hp|apply HB; exact Hp|apply IH].
Qed.

Definition bsim (A : pres) (B : option pexc * env * list entry * val) : Prop :=
  let '(x, r', l, _) := B in psim A {| pr_exc := x; pr_env := r'; pr_log := l |}.
Definition pbody_ok (q : bool) (M s : pstmt) : Prop := forall sc glob r sv p p', fl p = fl p' ->
  bsim (X_s sc glob M r sv p) (pbody_of q sc glob s r p').

(* a right-hand side V is run for v, whose reference is bracketed by the events lb (before) and ea (after).  FragFunProofs.rhs_quiet_elim,
   rhs_wrapped and rhs_framed are the three instances in continuation form; this form is generic in `quiet` *)
Definition rhs_ok (q : bool) (lb : list entry) (ea : event) (k : N) (V v : rhs) : Prop := forall lk gl sv p p', fl p = fl p' ->
  exists x sv' l l', eval_r call lk gl V sv p = (x, sv', l) /\ ref_r callr q lk gl v (p' ++ lb) = (x, l') /\
                     fl l = fl (lb ++ l' ++ fsay q (emitted_r ea k x)).
Definition test_ok (q : bool) (e : event) (n : N) (T t : texpr) : Prop := forall lk,
  fst (eval_e T lk) = fst (ref_e t lk) /\ fl (snd (eval_e T lk)) = fl (fsay q (snd (ref_e t lk) ++ emitted e n (fst (ref_e t lk)))).

Lemma pbody_expr q n V v : rhs_ok q [] E_after_expr_stmt n V v -> pbody_ok q (PExpr n V) (PExpr n v).
Proof.
  intros H sc glob r sv p p' Hp. destruct (H (look sc glob r) (globs sc glob r) sv p p' Hp) as (x & sv' & l & l' & E1 & E2 & El).
  rewrite app_nil_r in E2. cbn [FragProg.pexec_s pbody_of pbody pid]. rewrite E1, E2. repeat split. exact El.
Qed.

Lemma pbody_assign q n xs V v : rhs_ok q (fsay q [(E_before_assign_rhs, rid v, None)]) E_after_assign_rhs (rid v) V v ->
  pbody_ok q (PAssign n xs V) (PAssign n xs v).
Proof.
  intros H sc glob r sv p p' Hp. destruct (H (look sc glob r) (globs sc glob r) sv p p' Hp) as (x & sv' & l & l' & E1 & E2 & El).
  cbn [FragProg.pexec_s pbody_of pbody pid]. rewrite E1, E2. destruct x; repeat split; exact El.
Qed.

Lemma pbody_return q n V v : rhs_ok q (fsay q [(E_before_return, rid v, None)]) E_after_return (rid v) V v ->
  pbody_ok q (PReturn n (Some V)) (PReturn n (Some v)).
Proof.
  intros H sc glob r sv p p' Hp. destruct (H (look sc glob r) (globs sc glob r) sv p p' Hp) as (x & sv' & l & l' & E1 & E2 & El).
  cbn [FragProg.pexec_s pbody_of pbody pid]. rewrite E1, E2. repeat split. exact El.
Qed.

Lemma pbody_if q n T t B b O o : test_ok q E_after_if_test n T t -> (forall sc glob, lists_sim q sc glob B b) -> (forall sc glob, lists_sim q sc glob O o) ->
  pbody_ok q (PIf n T B O) (PIf n t b o).
Proof.
  intros HT HB HO sc glob r sv p p' Hp. rewrite pexec_unfold. cbn [pexec_body pbody_of pbody pid]. destruct (HT (look sc glob r)) as [T1 T2].
  destruct (eval_e T (look sc glob r)) as [x LT], (ref_e t (look sc glob r)) as [x' l]. cbn [fst snd] in T1, T2. subst x'.
  destruct x as [vt|e]; cbn [emitted] in T2; [|rewrite app_nil_r in T2; repeat split; exact T2].
  apply psim_pre; [exact T2|]. destruct (truth vt); [apply HB|apply HO]; apply fl_pre; assumption.
Qed.

Lemma pbody_for q n x IT it B b O o : rhs_ok q (fsay q [(E_before_for_iter, rid it, None)]) E_after_for_iter (rid it) IT it ->
  (forall sc glob k i r sv p p', fl p = fl p' -> psim (pfloop sc glob x B O k i r sv p) (prfloop q sc glob n x b o k i r p')) ->
  pbody_ok q (PFor n x IT B O) (PFor n x it b o).
Proof.
  intros H HL sc glob r sv p p' Hp. destruct (H (look sc glob r) (globs sc glob r) sv p p' Hp) as (y & sv' & l & l' & E1 & E2 & El).
  rewrite pexec_PFor. cbn [pbody_of pbody pid]. rewrite E1, E2. destruct y as [v|e]; [|repeat split; exact El]. destruct v; try (repeat split; exact El).
  apply psim_pre; [exact El|]. apply HL. apply fl_pre; assumption.
Qed.

Definition psimple (s : pstmt) : Prop := match s with PPass _ | PBreak _ | PContinue _ | PReturn _ None => True | _ => False end.
Lemma pbody_same q s : psimple s -> pbody_ok q s s.
Proof. intros H sc glob r sv p p' _. destruct s as [| | | | | | | |n [v|]| | | | | | |]; try contradiction; repeat split. Qed.

Lemma src3 (x y z : bool) : x && y && z = true -> x = true /\ y = true /\ z = true.
Proof. destruct x, y, z; auto. Qed.

(* the pristine copies: source semantics, only the callees speak.
   g' = whether nested loops of the copy keep a guarded test (the copy of a loop body, `ppr ge`) or not (the copy of a function body: `ppr false` = identity) *)
Definition pquiet_ok (g' : bool) (s : pstmt) : Prop := psrc_b s = true -> forall sc glob r sv p p', fl p = fl p' ->
  psim (X_s sc glob (ppr g' s) r sv p) (R_s true false sc glob s r p').

Lemma pquiet_list g' u : Forall (pquiet_ok g') u -> forallb psrc_b u = true -> forall sc glob, lists_sim true sc glob (map (ppr g') u) u.
Proof.
  induction 1 as [|x u Hx _ IH]; intros Hs sc glob r sv p p' Hp; [repeat split|].
  apply andb_true_iff in Hs as [Hsx Hs]. apply psim_seq; [exact Hp|exact (Hx Hsx sc glob r sv p p' Hp)|]. intros. apply IH; assumption.
Qed.

Lemma pquiet_loop g' sc glob n t b o (test : env -> list entry -> res val * list entry) :
  (forall r pre, test r pre = (fst (ref_e t (look sc glob r)), [])) ->
  Forall (pquiet_ok g') b -> Forall (pquiet_ok g') o -> forallb psrc_b b = true -> forallb psrc_b o = true ->
  forall f r sv p p', fl p = fl p' ->
  psim (ploop sc glob test (map (ppr g') b) (map (ppr g') o) f r sv p) (prloop true sc glob n t b o f r p').
Proof.
  intros Htest Fb Fo Hb Ho. apply ploop_sim.
  - intros r p p' _. rewrite Htest. split; reflexivity.
  - apply iter_quiet, pquiet_list; assumption.
  - apply pquiet_list; assumption.
Qed.

Lemma pquiet_floop g' sc glob n x b o :
  Forall (pquiet_ok g') b -> Forall (pquiet_ok g') o -> forallb psrc_b b = true -> forallb psrc_b o = true ->
  forall k i r sv p p', fl p = fl p' ->
  psim (pfloop sc glob x (map (ppr g') b) (map (ppr g') o) k i r sv p) (prfloop true sc glob n x b o k i r p').
Proof. intros Fb Fo Hb Ho. apply pfloop_sim; [apply iter_quiet|]; apply pquiet_list; assumption. Qed.

Lemma rhs_quiet_ok ea k v : src_r v = true -> rhs_ok true [] ea k v v.
Proof.
  intros Hs lk gl sv p p' Hp. rewrite app_nil_r. apply (rhs_quiet_elim binop cmpop unop truth cval is_and c call callr call_ok); [exact Hs|exact Hp|].
  intros x sv' l l' Hl. exists x, sv', l, l'. repeat split. cbn [fsay app]. rewrite app_nil_r. exact Hl.
Qed.

Lemma quiet_finish M s : pbody_ok true M s -> forall sc glob r sv p p', fl p = fl p' ->
  psim (X_s sc glob M r sv p) (R_s true false sc glob s r p').
Proof.
  intros H sc glob r sv p p' Hp. rewrite pref_unfold. cbn [fsay]. rewrite app_nil_r. specialize (H sc glob r sv p p' Hp).
  destruct (pbody_of true sc glob s r p') as [[[x r'] l] v]. destruct H as (E1 & E2 & E3). repeat split; try assumption.
  cbn [pfinish fsay pr_log app]. destruct x; rewrite app_nil_r; exact E3.
Qed.

Theorem pquiet_stmt g' : forall s, pquiet_ok g' s.
Proof.
  induction s as [n v|n xs v|n|n t b o Fb Fo|n t b o Fb Fo|n x it b o Fb Fo|n|n|n v|n name ps body Fbody| | | | | |] using pstmt_ind'; intros Hs; try discriminate Hs; cbn [psrc_b] in Hs; apply quiet_finish; cbn [ppr]; try (apply pbody_same; exact I).
  - apply pbody_expr, rhs_quiet_ok, Hs.
  - apply pbody_assign, rhs_quiet_ok, Hs.
  - apply src3 in Hs as (Ht & Hb & Ho). apply pbody_if; [|intros; apply pquiet_list; assumption..].
    intros lk. rewrite (eval_src t lk Ht). split; reflexivity.
  - apply src3 in Hs as (Ht & Hb & Ho). intros sc glob r sv p p'.
    destruct g'; [rewrite pexec_PWhileG|rewrite pexec_PWhile]; apply pquiet_loop; try assumption; intros r0 pre0;
      [destruct (pgon pre0 (GTest n))|]; apply (eval_src t _ Ht).
  - apply src3 in Hs as (Hi & Hb & Ho). apply pbody_for; [apply rhs_quiet_ok, Hi|intros; apply pquiet_floop; assumption].
  - destruct v as [v|]; [apply pbody_return, rhs_quiet_ok, Hs|apply pbody_same; exact I].
Qed.

Lemma ppr_false : forall s, ppr false s = s.
Proof.
  induction s as [n v|n xs v|n|n t b o Fb Fo|n t b o Fb Fo|n x it b o Fb Fo|n|n|n v|n name ps body Fbody| | | | | |] using pstmt_ind'; cbn [ppr]; try reflexivity; rewrite (map_ext_Forall _ _ Fb), (map_ext_Forall _ _ Fo), !map_id; reflexivity.
Qed.
Lemma ppr_false_map u : map (ppr false) u = u.
Proof. rewrite (map_ext _ _ ppr_false). apply map_id. Qed.

Definition ploud_ok (s : pstmt) : Prop := psrc_t s = true -> forall m sc glob r sv p p', fl p = fl p' ->
  psim (X_l sc glob (pis c ge m s) r sv p) (R_s false m sc glob s r p').

Lemma ploud_list u : Forall ploud_ok u -> forallb psrc_t u = true -> forall m sc glob r sv p p', fl p = fl p' ->
  psim (X_l sc glob (flat_map (pis c ge m) u) r sv p) (R_l false m sc glob u r p').
Proof.
  induction 1 as [|x u Hx _ IH]; intros Hs m sc glob r sv p p' Hp; [repeat split|].
  apply andb_true_iff in Hs as [Hsx Hs]. cbn [flat_map]. rewrite pexec_l_app.
  apply psim_seq; [exact Hp|exact (Hx Hsx m sc glob r sv p p' Hp)|]. intros. apply IH; assumption.
Qed.

Lemma psrc_b_t u : forallb psrc_b u = true -> forallb psrc_t u = true.
Proof.
  induction u as [|x u IH]; [reflexivity|]. cbn [forallb]. intros H. apply andb_true_iff in H as [Hx Hu]. rewrite (IH Hu), andb_true_r.
  destruct x; try exact Hx; discriminate Hx.
Qed.
Lemma ploud_body u : Forall ploud_ok u -> forallb psrc_b u = true -> forall sc glob, lists_sim false sc glob (flat_map (pis c ge false) u) u.
Proof. intros F H sc glob r sv. exact (ploud_list u F (psrc_b_t u H) false sc glob r sv). Qed.

(* a body behind a guard: `if guard [and emit(before)]: try: B finally: emit(after)  else: P`, or, without global guards, just its first branch *)
Lemma finally_sim ea n gk B b sc glob : lists_sim false sc glob B b -> forall r sv p p', fl p = fl p' ->
  psim (X_l sc glob (finally_emit ea n gk B) r sv p) (prwrap [] (R_l false false sc glob b r p') [(ea, n, Some VNone)]).
Proof.
  intros HB r sv p p' Hp. destruct (HB r sv p p' Hp) as (E1 & E2 & E3). unfold finally_emit. destruct (sub c ea) eqn:Ea.
  - rewrite pexec_l_single, pexec_unfold. cbn [pexec_body]. rewrite pexec_l_single. repeat split; try assumption. exact (fl_pre c _ (pr_log (R_l false false sc glob b r p')) _ _ E3 eq_refl).
  - repeat split; try assumption. cbn [prwrap pr_log app]. rewrite fl_app, <- E3, fl_single, Ea, app_nil_r. reflexivity.
Qed.

Lemma guarded_sim G g n ea gk B P b sc glob : lists_sim false sc glob B b -> lists_sim true sc glob P b -> forall r sv p p', fl p = fl p' ->
  let LB := negb G || pgon p' g in
  let eb := (before_event g, n, Some (cval (SBool true))) in
  psim (X_l sc glob (guarded G g n (finally_emit ea n gk B) P) r sv p)
       (prwrap (if LB then [eb] else []) (R_l (negb LB) false sc glob b r (p' ++ if LB then [eb] else [])) (if LB then [(ea, n, Some VNone)] else [])).
Proof.
  intros HB HP r sv p p' Hp LB eb. subst LB.
  set (R := prwrap [eb] (R_l false false sc glob b r (p' ++ [eb])) [(ea, n, Some VNone)]).
  assert (A1 : forall sv, let a := X_l sc glob (finally_emit ea n gk B) r sv (p ++ [eb]) in
                          psim {| p_exc := p_exc a; p_env := p_env a; p_saved := p_saved a; p_log := eb :: p_log a |} R).
  { intros sv0. apply (psim_pre c _ (prwrap [] _ _) [eb] [eb] eq_refl), finally_sim; [exact HB|]. apply fl_pre; [exact Hp|reflexivity]. }
  assert (A0 : sub c (before_event g) = false -> psim (X_l sc glob (finally_emit ea n gk B) r sv p) R).
  { intros Eb. assert (He : fl [eb] = []) by (unfold eb; rewrite fl_single, Eb; reflexivity).
    apply (psim_silent c _ (prwrap [] _ _) [eb] He), finally_sim; [exact HB|]. rewrite fl_app, He, app_nil_r. exact Hp. }
  unfold guarded. destruct G; cbn [negb orb].
  - rewrite pexec_l_single, pexec_unfold. cbn [pexec_body]. rewrite (pgon_fl p p' g Hp). destruct (pgon p' g); cbn [negb].
    + destruct (sub c (before_event g)) eqn:Eb; [apply A1|apply A0; reflexivity].
    + rewrite app_nil_r, prwrap_nil. apply HP. exact Hp.
  - destruct (sub c (before_event g)) eqn:Eb; cbn [app]; [|apply A0; reflexivity].
    rewrite pexec_l_cons. unfold pseq. cbn [FragProg.pexec_s FragFun.eval_r FragSem.eval_e rr_of p_exc p_env p_saved p_log app]. apply A1.
Qed.

Lemma test_loud e n t : src_e t = true -> test_ok false e n (wrap c e n (ie c t)) t.
Proof.
  intros Ht lk. rewrite eval_wrap, (eval_ie binop cmpop unop truth cval is_and c t Ht). cbn [fst snd fsay]. split; [reflexivity|].
  rewrite !fl_app, fl_idem, fl_if, fl_emitted, fl_nil. destruct (sub c e); reflexivity.
Qed.

Section OneLoop.
Variables (n : N) (t : texpr) (b o : list pstmt).
Hypothesis Ht : src_e t = true.
Hypothesis Hb : forallb psrc_b b = true.
Hypothesis Ho : forallb psrc_b o = true.
Hypothesis Fb : Forall ploud_ok b.
Hypothesis Fo : Forall ploud_ok o.
Variables (sc : scope) (glob : env).

(* W_after / W_body (and F_after / F_body, with_after / instr_body below) are `finally_emit` and `guarded ge … (finally_emit …)` written out: the form
   iter_sim, floop_sim and body_sim are stated in; these apply guarded_sim by that conversion *)
Definition W_t' := wrap c E_after_while_test n (ie c t).
Definition W_b' := flat_map (pis c ge false) b.
Definition W_o' := flat_map (pis c ge false) o.
Definition W_after := if sub c E_after_while_loop_iter
                      then [PTry W_b' [PEmit E_after_while_loop_iter n None (Some (if ge then Some (GBody n) else None))]] else W_b'.
Definition W_body := if ge then [PGuardIf (GBody n) (if sub c E_before_while_loop_body then Some n else None) W_after (map (ppr ge) b)]
                     else (if sub c E_before_while_loop_body then [PEmit E_before_while_loop_body n (Some (RExp (XConst 0 (SBool true)))) None] else []) ++ W_after.
Definition W_test := fun (r : env) (pre : list entry) =>
  if ge then (if pgon pre (GTest n) then eval_e W_t' (look sc glob r) else eval_e t (look sc glob r)) else eval_e W_t' (look sc glob r).

Lemma test_sim r p p' : fl p = fl p' ->
  fst (W_test r p) = fst (ref_e t (look sc glob r)) /\
  fl (snd (W_test r p)) = fl (if negb ge || pgon p' (GTest n) then snd (ref_e t (look sc glob r)) ++ emitted E_after_while_test n (fst (ref_e t (look sc glob r))) else []).
Proof.
  intros Hp. unfold W_test. rewrite (pgon_fl p p' _ Hp). pose proof (test_loud E_after_while_test n t Ht (look sc glob r)) as HT.
  destruct ge; cbn [negb orb]; [destruct (pgon p' (GTest n))|]; try exact HT.
  rewrite (eval_src t _ Ht). split; reflexivity.
Qed.

Lemma iter_sim r sv p p' : fl p = fl p' ->
  let LB := negb ge || pgon p' (GBody n) in
  let lb := if LB then [ebw n] else [] in
  let A := X_l sc glob W_body r sv p in
  let a := R_l (negb LB) false sc glob b r (p' ++ lb) in
  let la := if LB then [eaw n] else [] in
  p_exc A = pr_exc a /\ p_env A = pr_env a /\ fl (p_log A) = fl (lb ++ pr_log a ++ la).
Proof.
  exact (guarded_sim ge (GBody n) n E_after_while_loop_iter _ W_b' (map (ppr ge) b) b sc glob
           (ploud_body b Fb Hb sc glob) (pquiet_list ge b (Forall_all _ (pquiet_stmt ge) b) Hb sc glob) r sv p p').
Qed.

Lemma loop_sim : forall f r sv p p', fl p = fl p' ->
  psim (ploop sc glob W_test W_body W_o' f r sv p) (prloop false sc glob n t b o f r p').
Proof. exact (ploop_sim false sc glob n t b o W_test W_body W_o' test_sim iter_sim (ploud_body o Fo Ho sc glob)). Qed.

End OneLoop.

Section OneFor.
Variables (n x : N) (b o : list pstmt).
Hypothesis Hb : forallb psrc_b b = true.
Hypothesis Ho : forallb psrc_b o = true.
Hypothesis Fb : Forall ploud_ok b.
Hypothesis Fo : Forall ploud_ok o.
Variables (sc : scope) (glob : env).

Definition F_b' := flat_map (pis c ge false) b.
Definition F_o' := flat_map (pis c ge false) o.
Definition F_after := if sub c E_after_for_loop_iter
                      then [PTry F_b' [PEmit E_after_for_loop_iter n None (Some (if ge then Some (GFBody n) else None))]] else F_b'.
Definition F_body := if ge then [PGuardIf (GFBody n) (if sub c E_before_for_loop_body then Some n else None) F_after (map (ppr ge) b)]
                     else (if sub c E_before_for_loop_body then [PEmit E_before_for_loop_body n (Some (RExp (XConst 0 (SBool true)))) None] else []) ++ F_after.

Lemma floop_sim : forall k i r sv p p', fl p = fl p' ->
  psim (pfloop sc glob x F_body F_o' k i r sv p) (prfloop false sc glob n x b o k i r p').
Proof.
  apply pfloop_sim; [|exact (ploud_body o Fo Ho sc glob)].
  exact (guarded_sim ge (GFBody n) n E_after_for_loop_iter _ F_b' (map (ppr ge) b) b sc glob
           (ploud_body b Fb Hb sc glob) (pquiet_list ge b (Forall_all _ (pquiet_stmt ge) b) Hb sc glob)).
Qed.
End OneFor.

Lemma rhs_loud_expr ea k v : src_r v = true -> rhs_ok false [] ea k (wrapR c ea k (ir c v)) v.
Proof.
  intros Hs lk gl sv p p' Hp. rewrite app_nil_r. apply (rhs_wrapped binop cmpop unop truth cval is_and c call callr call_ok); [exact Hs|exact Hp|].
  intros x sv' l l' Hl. exists x, sv', l, l'. repeat split. exact Hl.
Qed.
Lemma rhs_loud_ok eb ea k v : src_r v = true -> rhs_ok false [(eb, k, None)] ea k (wrapR c ea k (defR c eb k (ir c v))) v.
Proof.
  intros Hs lk gl sv p p' Hp. apply (rhs_framed binop cmpop unop truth cval is_and c call callr call_ok); [exact Hs|exact Hp|].
  intros x sv' l l' Hl. exists x, sv', l, l'. repeat split. exact Hl.
Qed.

Definition with_after (f : N) (body : list pstmt) : list pstmt :=
  if sub c E_after_function_execution
  then [PTry (flat_map (pis c ge false) body) [PEmit E_after_function_execution f None (Some (if ge then Some (GFun f) else None))]]
  else flat_map (pis c ge false) body.
Definition instr_body (f : N) (body : list pstmt) : list pstmt :=
  [PNameTry
     (if ge then [PGuardIf (GFun f) (if sub c E_before_function_body then Some f else None) (with_after f body) body]
      else (if sub c E_before_function_body then [PEmit E_before_function_body f (Some (RExp (XConst 0 (SBool true)))) None] else []) ++ with_after f body)
     body].
Definition efb (f : N) : entry := (E_before_function_body, f, Some (cval (SBool true))).
Definition eafe (f : N) : entry := (E_after_function_execution, f, Some VNone).

Lemma pmain_for n x it b o :
  pmain_of (PFor n x it b o) = PFor n x (wrapR c E_after_for_iter (rid it) (defR c E_before_for_iter (rid it) (ir c it))) (F_body n b) (F_o' o).
Proof. unfold pmain_of, pmain, F_body, F_after, F_o', F_b'. destruct ge; reflexivity. Qed.
Lemma main_exec n t b o sc glob r sv p :
  X_s sc glob (pmain_of (PWhile n t b o)) r sv p = ploop sc glob (W_test n t sc glob) (W_body n b) (W_o' o) fuel r sv p.
Proof.
  unfold pmain_of, pmain, W_test, W_body, W_after, W_o', W_b', W_t'. destruct ge; [apply pexec_PWhileG|apply pexec_PWhile].
Qed.

(* what the statement's own part (its main statement and the after_stmt emission) has to deliver; B is the reference's body *)
Definition own_concl (m : bool) (n : N) (B : option pexc * env * list entry * val) (O : pres) : Prop :=
  let '(x, r', l, v) := B in
  let av := if m then v else VNone in
  p_exc O = x /\ p_env O = r' /\
  fl (p_log O) = fl (l ++ match x with None => [(E_after_stmt, n, Some av)] | Some _ => [] end) /\
  (pwants m = true -> x = None -> p_saved O = av).

Lemma stmt_wrap_sim m n own sc glob r (B : list entry -> option pexc * env * list entry * val) :
  (forall sv q q', fl q = fl q' -> own_concl m n (B q') (X_l sc glob own r sv q)) ->
  forall sv p p', fl p = fl p' ->
  psim (X_l sc glob (stmt_wrap m n own) r sv p) (pfinish false m n (B (p' ++ [(E_before_stmt, n, Some VNone)]))).
Proof.
  intros HO sv p p' Hp. set (bst := (E_before_stmt, n, Some VNone)). unfold stmt_wrap. cbv zeta.
  set (EXP := if sub c E_before_stmt then _ else _).
  assert (HE : own_concl m n (let '(x, r', l, v) := B (p' ++ [bst]) in (x, r', bst :: l, v)) (X_l sc glob EXP r sv p)).
  { subst EXP. destruct (sub c E_before_stmt) eqn:Bf.
    - rewrite pexec_l_single, pexec_unfold. cbn [pexec_body]. specialize (HO sv (p ++ [bst]) (p' ++ [bst]) (fl_pre c _ _ _ _ Hp eq_refl)).
      destruct (B (p' ++ [bst])) as [[[x r'] l] v]. destruct HO as (O1 & O2 & O3 & O4). repeat split; try assumption.
      exact (fl_pre c [bst] [bst] _ _ eq_refl O3).
    - assert (He : fl [bst] = []) by (unfold bst; rewrite fl_single, Bf; reflexivity).
      assert (Hq : fl p = fl (p' ++ [bst])) by (rewrite fl_app, He, app_nil_r; exact Hp). specialize (HO sv p _ Hq).
      destruct (B (p' ++ [bst])) as [[[x r'] l] v]. destruct HO as (O1 & O2 & O3 & O4). repeat split; try assumption.
      rewrite O3. symmetry. exact (fl_pre c [bst] [] _ _ He eq_refl). }
  destruct (B (p' ++ [bst])) as [[[x r'] l] v]. destruct HE as (E1 & E2 & E3 & E4). unfold pfinish. cbn [fsay app].
  destruct (m && sub c E_after_module_stmt) eqn:Am.
  - apply andb_true_iff in Am as [-> Ea]. assert (W : pwants true = true) by (unfold pwants; rewrite Ea; apply orb_true_r).
    rewrite pexec_l_app. unfold pseq. rewrite E1. destruct x as [e|].
    + repeat split; assumption.
    + rewrite pexec_l_single. cbn [FragProg.pexec_s p_exc p_env p_saved p_log]. repeat split; try assumption.
      cbn [p_log pr_log]. rewrite (E4 W eq_refl), fl_app, E3, <- fl_app, <- app_assoc. reflexivity.
  - repeat split; try assumption. cbn [pr_log]. rewrite E3. destruct x as [e|]; [reflexivity|]. destruct m; [|reflexivity]. cbn [andb] in Am.
    assert (He : fl [(E_after_module_stmt, n, Some v)] = []) by (rewrite fl_single, Am; reflexivity).
    change (fl ((bst :: l) ++ [(E_after_stmt, n, Some v)]) = fl ((bst :: l) ++ [(E_after_stmt, n, Some v)] ++ [(E_after_module_stmt, n, Some v)])).
    rewrite app_assoc, (fl_app c (_ ++ _)), He, app_nil_r. reflexivity.
Qed.

(* the main statement alone: when no after_stmt event is wanted, or the statement cannot end normally *)
Lemma own_single m n M B sc glob r sv q : bsim (X_s sc glob M r sv q) B -> pwants m = false \/ (exists e, fst (fst (fst B)) = Some e) ->
  own_concl m n B (X_l sc glob [M] r sv q).
Proof.
  destruct B as [[[x r'] l] v]. intros (A1 & A2 & A3) H. cbn [fst pr_exc pr_env pr_log] in *. rewrite pexec_l_single. repeat split; try assumption.
  - rewrite A3. destruct H as [W|[e ->]]; [|rewrite app_nil_r; reflexivity].
    destruct x; rewrite fl_app, ?fl_single, ?(proj1 (orb_false_elim _ _ W)), ?fl_nil, app_nil_r; reflexivity.
  - intros W ->. destruct H as [W'|[e He]]; [rewrite W in W'|]; discriminate.
Qed.

Lemma own_after m n M B sc glob r sv q : bsim (X_s sc glob M r sv q) B -> (m = true -> snd B = VNone) ->
  own_concl m n B (X_l sc glob [M; PEmit E_after_stmt n None None] r sv q).
Proof.
  destruct B as [[[x r'] l] v]. intros (A1 & A2 & A3) Hv. cbn [snd pr_exc pr_env pr_log] in *. unfold own_concl.
  replace (if m then v else VNone) with VNone by (destruct m; [symmetry; apply Hv|]; reflexivity).
  rewrite pexec_l_cons. unfold pseq. rewrite A1. destruct x as [e|].
  - repeat split; try assumption; [rewrite app_nil_r; exact A3|intros _ H; discriminate H].
  - rewrite pexec_l_single. repeat split; try assumption. apply fl_pre; [exact A3|reflexivity].
Qed.

Lemma pbody_nonexpr_value sc glob s r p : p_is_expr s = false -> snd (pbody_of false sc glob s r p) = VNone.
Proof.
  intros He. destruct s as [k rh|k xs rh|k|k t b o|k t b o|k x it b o|k|k|k ro|k name ps body| | | | | |]; try discriminate He; cbn [pbody_of pbody]; try reflexivity.
  - destruct (ref_r callr false _ _ rh _); reflexivity.
  - destruct (ref_e t (look sc glob r)) as [[vt|e] l]; reflexivity.
  - destruct (ref_r callr false _ _ it _) as [[v|e] l]; [destruct v|]; reflexivity.
  - destruct ro as [v|]; [destruct (ref_r callr false _ _ v _)|]; reflexivity.
Qed.

Lemma pown_ok s m : psrc_t s = true -> pbody_ok false (pmain_of s) s -> forall sc glob r sv q q', fl q = fl q' ->
  own_concl m (pid s) (pbody_of false sc glob s r q') (X_l sc glob (pown_of m s) r sv q).
Proof.
  intros Hs HM sc glob r sv q q' Hq. specialize (HM sc glob r sv q q' Hq). rewrite pown_of_eq. destruct (p_is_return s) eqn:ER.
  - (* return never ends normally *)
    apply own_single; [exact HM|right]. destruct s as [| | | | | | | |n [v|]| | | | | | |]; try discriminate ER; cbn [pbody_of pbody];
      [destruct (ref_r callr false _ _ v _)|]; eexists; reflexivity.
  - unfold pmain_and_after. destruct (pwants m) eqn:W; [|apply own_single; [exact HM|left; exact W]]. destruct (p_is_expr s && m) eqn:EM.
    + (* a module-level expression statement: its value is the after_stmt event's *)
      apply andb_true_iff in EM as [Ex ->]. destruct s as [n v| | | | | | | | | | | | | | |]; try discriminate Ex.
      unfold own_concl, pmain_of. rewrite W. cbn [pmvalue pmain pid pbody_of pbody]. rewrite pexec_l_single, pexec_PEmit_some by (apply FragFunProofs.ir_not_load; exact Hs).
      destruct (rhs_loud_expr E_after_expr_stmt n v Hs (look sc glob r) (globs sc glob r) sv q q' Hq) as (x & sv' & l & l' & E1 & E2 & El).
      rewrite app_nil_r in E2. rewrite E1, E2. destruct x as [y|e]; cbn [pexc_of emitted_r app] in El |- *.
      * replace (event_eqb E_after_stmt E_after_stmt) with true by reflexivity. repeat split. apply fl_pre; [exact El|reflexivity].
      * repeat split; [rewrite app_nil_r; exact El|intros _ H; discriminate H].
    + apply own_after; [exact HM|]. intros ->. rewrite andb_true_r in EM. apply pbody_nonexpr_value; assumption.
Qed.

Lemma passemble s : pbody_ok false (pmain_of s) s -> ploud_ok s.
Proof.
  intros HM Hs m sc glob r sv p p' Hp. rewrite pis_unfold, pref_unfold.
  apply (stmt_wrap_sim m (pid s) (pown_of m s) sc glob r (pbody_of false sc glob s r)); [|exact Hp].
  intros sv0 q q'. apply pown_ok; assumption.
Qed.

Lemma pbody_def q n name ps B body : pbody_ok q (PDef n name ps B) (PDef n name ps body).
Proof. intros sc glob r sv p p' _. repeat split. Qed.

Theorem ploud_stmt : forall s, ploud_ok s.
Proof.
  induction s as [n v|n xs v|n|n t b o Fb Fo|n t b o Fb Fo|n x it b o Fb Fo|n|n|n v|n name ps body Fbody| | | | | |] using pstmt_ind'; intros Hs; try discriminate Hs; refine (passemble _ _ Hs); cbn [psrc_t psrc_b] in Hs;
    try (apply pbody_same; exact I).
  - apply pbody_expr, rhs_loud_expr, Hs.
  - apply pbody_assign, rhs_loud_ok, Hs.
  - apply src3 in Hs as (Ht & Hb & Ho). apply pbody_if; [apply test_loud, Ht|intros; apply ploud_body; assumption..].
  - apply src3 in Hs as (Ht & Hb & Ho). intros sc glob r sv p p'. rewrite (main_exec n t b o). apply loop_sim; assumption.
  - apply src3 in Hs as (Hi & Hb & Ho). rewrite (pmain_for n x it b o). apply pbody_for; [apply rhs_loud_ok, Hi|intros; apply floop_sim; assumption].
  - destruct v as [v|]; [apply pbody_return, rhs_loud_ok, Hs|apply pbody_same; exact I].
  - apply pbody_def.
Qed.

Lemma passigned_instr_body f body : passigned_l (instr_body f body) = passigned_l body.
Proof. apply app_nil_r. Qed.

Lemma body_sim f body sc glob r sv p p' : fl p = fl p' -> forallb psrc_b body = true ->
  let loud := negb ge || pgon p' (GFun f) in
  let lb := if loud then [efb f] else [] in
  let A := X_l sc glob (instr_body f body) r sv p in
  let B := R_l (negb loud) false sc glob body r (p' ++ lb) in
  p_exc A = pr_exc B /\ fl (p_log A) = fl (lb ++ pr_log B ++ (if loud then [eafe f] else [])).
Proof.
  intros Hp Hb. cbv zeta. unfold instr_body. rewrite pexec_l_single, pexec_unfold. cbn [pexec_body].
  pose proof (pquiet_list false body (Forall_all _ (pquiet_stmt false) body) Hb sc glob) as HQ. rewrite ppr_false_map in HQ.
  destruct (guarded_sim ge (GFun f) f E_after_function_execution (Some (if ge then Some (GFun f) else None)) (flat_map (pis c ge false) body) body body sc glob
              (ploud_body body (Forall_all _ ploud_stmt body) Hb sc glob) HQ r sv p p' Hp) as (E1 & _ & E3).
  exact (conj E1 E3).
Qed.
End WithCalls.

Definition itab (ftab : N -> option (list N * list pstmt)) : N -> option (list N * list pstmt) :=
  fun f => match ftab f with Some (ps, body) => Some (ps, instr_body f body) | None => None end.
Definition tab_ok (ftab : N -> option (list N * list pstmt)) : Prop := forall f ps body, ftab f = Some (ps, body) -> forallb psrc_b body = true.

Lemma call_step tabi ftab call callr : (forall f, tabi f = itab ftab f) -> tab_ok ftab -> call_sim c call callr ->
  call_sim c (pdo_call binop cmpop unop truth cval is_and c pol fuel tabi call) (pdo_callr binop cmpop unop truth cval is_and c pol fuel ge ftab callr).
Proof.
  intros Hi Ht Hc f vs glob sv p p' Hp. unfold pdo_call, pdo_callr. rewrite Hi. unfold itab.
  destruct (ftab f) as [[ps body]|] eqn:Ef; [|split; reflexivity].
  destruct (Nat.eqb (length ps) (length vs)); [|split; reflexivity].
  rewrite passigned_instr_body.
  destruct (body_sim call callr Hc f body (Some (ps ++ passigned_l body)) glob (bind ps vs (fun _ => None)) sv p p' Hp (Ht f ps body Ef)) as [B1 B2].
  unfold FragFunProofs.rsim. cbn [fst snd]. split.
  - rewrite B1. reflexivity.
  - exact B2.
Qed.

Theorem calls_agree tabi ftab : (forall f, tabi f = itab ftab f) -> tab_ok ftab -> forall d,
  call_sim c (pcall binop cmpop unop truth cval is_and c pol fuel tabi d) (pcallr binop cmpop unop truth cval is_and c pol fuel ge ftab d).
Proof.
  intros Hi Ht. induction d as [|d IH].
  - intros f vs glob sv p p' _. split; reflexivity.
  - cbn [pcall pcallr]. apply call_step; assumption.
Qed.

Lemma pdefs_of_app u w n : pdefs_of (u ++ w) n = match pdefs_of u n with Some d => Some d | None => pdefs_of w n end.
Proof. induction u as [|x u IH]; [reflexivity|]. cbn [app pdefs_of]. destruct (pfind_def n x); [reflexivity|exact IH]. Qed.

Lemma pfind_before n k tb own : pfind_def n (PBefore k tb own) = pdefs_of own n.
Proof. induction own as [|x u IH]; [reflexivity|]. cbn [pfind_def pdefs_of] in *. destruct (pfind_def n x); [reflexivity|exact IH]. Qed.

Lemma pdefs_wrap m k own n : pdefs_of (stmt_wrap m k own) n = pdefs_of own n.
Proof.
  unfold stmt_wrap. cbv zeta. destruct (m && sub c E_after_module_stmt); rewrite ?pdefs_of_app; destruct (sub c E_before_stmt);
    cbn [pdefs_of]; rewrite ?pfind_before; destruct (pdefs_of own n); reflexivity.
Qed.

Lemma pdefs_own m s n : pdefs_of (pown_of m s) n = pfind_def n (pmain_of s).
Proof.
  rewrite pown_of_eq. unfold pmain_and_after. destruct (p_is_expr s && m) eqn:E.
  - destruct s; try discriminate E. destruct (pwants m); reflexivity.
  - destruct (p_is_return s), (pwants m); cbn [pdefs_of pfind_def]; destruct (pfind_def n (pmain_of s)); reflexivity.
Qed.

Lemma pdefs_pis s n : psrc_t s = true ->
  pdefs_of (pis c ge true s) n = match pfind_def n s with Some (ps, body) => Some (ps, instr_body n body) | None => None end.
Proof.
  rewrite pis_unfold, pdefs_wrap, pdefs_own. intros Hs. destruct s as [| | | |k t b o|k x it b o| | |k [v|]|k name ps body| | | | | |]; try discriminate Hs; try reflexivity.
  - unfold pmain_of, pmain. destruct ge; reflexivity.
  - rewrite pmain_for. reflexivity.
  - unfold pmain_of. cbn [pmain pfind_def]. destruct (N.eqb_spec k n) as [->|Hne]; reflexivity.
Qed.

Lemma pdefs_flat m n : forallb psrc_t m = true ->
  pdefs_of (flat_map (pis c ge true) m) n = itab (pdefs_of m) n.
Proof.
  induction m as [|s m IH]; intros Hs; [reflexivity|].
  cbn [forallb] in Hs. apply andb_true_iff in Hs as [Hs Hm]. cbn [flat_map pdefs_of]. rewrite pdefs_of_app, (pdefs_pis s n Hs), (IH Hm). unfold itab.
  destruct (pfind_def n s) as [[ps body]|]; reflexivity.
Qed.

Lemma pdefs_instr m : forallb psrc_t m = true -> forall n, pdefs_of (pinstr_module0 c ge m) n = itab (pdefs_of m) n.
Proof.
  intros Hs n. unfold pinstr_module0. rewrite !pdefs_of_app, (pdefs_flat m n Hs). unfold itab.
  destruct (sub c E_init_module); cbn [pdefs_of pfind_def]; destruct (pdefs_of m n) as [[ps body]|]; try reflexivity;
    destruct (sub c E_exit_module); reflexivity.
Qed.

Lemma pfind_def_src s n ps body : psrc_t s = true -> pfind_def n s = Some (ps, body) -> forallb psrc_b body = true.
Proof.
  intros Hs H. destruct s as [| | | | | | | | |k name ps0 body0| | | | | |]; try discriminate H; try discriminate Hs. cbn [pfind_def] in H. destruct (N.eqb k n); [|discriminate H]. injection H as <- <-. exact Hs.
Qed.
Lemma pdefs_src m : forallb psrc_t m = true -> tab_ok (pdefs_of m).
Proof.
  induction m as [|s m IH]; intros Hs f ps body H; [discriminate H|].
  cbn [forallb] in Hs. apply andb_true_iff in Hs as [Hs Hm]. cbn [pdefs_of] in H.
  destruct (pfind_def f s) as [d|] eqn:Ef.
  - injection H as ->. exact (pfind_def_src s f ps body Hs Ef).
  - exact (IH Hm f ps body H).
Qed.

Theorem pmodule_sim0 m : forallb psrc_t m = true -> forall d r sv,
  psim (prun binop cmpop unop truth cval is_and c pol fuel d (pinstr_module0 c ge m) r sv)
       (pref_module0 binop cmpop unop truth cval is_and c pol fuel ge d m r).
Proof.
  intros Hs d r sv. unfold prun, FragProg.pref_module0.
  pose proof (calls_agree (pdefs_of (pinstr_module0 c ge m)) (pdefs_of m) (pdefs_instr m Hs) (pdefs_src m Hs) d) as Hc.
  set (call := pcall binop cmpop unop truth cval is_and c pol fuel (pdefs_of (pinstr_module0 c ge m)) d) in *.
  set (callr := pcallr binop cmpop unop truth cval is_and c pol fuel ge (pdefs_of m) d) in *.
  unfold pinstr_module0. set (g0 := fun _ : N => @None val). set (ini := (E_init_module, 0, Some VNone)).
  set (R := fun r p' => let a := pref_l callr false true None g0 m r p' in
              {| pr_exc := pr_exc a; pr_env := pr_env a; pr_log := pr_log a ++ match pr_exc a with None => [(E_exit_module, 0, Some VNone)] | Some _ => [] end |}).
  assert (HX : forall r sv p p', fl p = fl p' ->
            psim (pexec_l call None g0 (flat_map (pis c ge true) m ++ (if sub c E_exit_module then [PEmit E_exit_module 0 None None] else [])) r sv p) (R r p')).
  { intros r0 sv0 p p' Hp. destruct (ploud_list call callr m (Forall_all _ (ploud_stmt call callr Hc) m) Hs true None g0 r0 sv0 p p' Hp) as (B1 & B2 & B3).
    rewrite pexec_l_app. unfold pseq, R. cbv zeta. rewrite B1. destruct (pr_exc (pref_l callr false true None g0 m r0 p')) as [e|].
    - rewrite app_nil_r. repeat split; assumption.
    - destruct (sub c E_exit_module) eqn:Xm; repeat split; try assumption; cbn [FragProg.pexec_l FragProg.pexec_s pseq p_exc p_log pr_log app];
        rewrite ?fl_app, ?B3, ?fl_single, ?Xm, ?fl_nil, ?app_nil_r; reflexivity. }
  destruct (sub c E_init_module) eqn:Im; cbn [app].
  - rewrite pexec_l_cons. apply (psim_seq c _ {| pr_exc := None; pr_env := r; pr_log := [ini] |} _ R [] [] eq_refl); [repeat split|exact HX].
  - assert (He : fl [ini] = []) by (unfold ini; rewrite fl_single, Im; reflexivity).
    apply (psim_silent c _ (R r [ini]) [ini] He), HX. rewrite He. reflexivity.
Qed.

(* the module docstring: as written, first, silent; it defines no function *)
Lemma prest_src m : forallb psrc_t m = true -> forallb psrc_t (prest m) = true.
Proof.
  destruct m as [|d rest]; [reflexivity|]. unfold prest. destruct (p_is_docstring d); [|auto].
  cbn [forallb]. intros H. now apply andb_true_iff in H as [_ H].
Qed.
Lemma pdoc_prest m : pdoc m ++ prest m = m.
Proof. destruct m as [|d rest]; [reflexivity|]. unfold pdoc, prest. now destruct (p_is_docstring d). Qed.
Lemma prun_doc cc pp dd u d r sv : p_is_docstring dd = true ->
  p_exc (prun binop cmpop unop truth cval is_and cc pp fuel d (dd :: u) r sv) = p_exc (prun binop cmpop unop truth cval is_and cc pp fuel d u r sv) /\
  p_env (prun binop cmpop unop truth cval is_and cc pp fuel d (dd :: u) r sv) = p_env (prun binop cmpop unop truth cval is_and cc pp fuel d u r sv) /\
  p_log (prun binop cmpop unop truth cval is_and cc pp fuel d (dd :: u) r sv) = p_log (prun binop cmpop unop truth cval is_and cc pp fuel d u r sv).
Proof.
  destruct dd as [n rh| | | | | | | | | | | | | | |]; try discriminate. destruct rh as [v| | |]; try discriminate.
  destruct v as [|m sc| | | | | | | | | | |]; try discriminate. destruct sc as [| | |str| | | |]; try discriminate. intros _.
  unfold prun. change (pdefs_of (PExpr n (RExp (XConst m (SStr str))) :: u)) with (fun k => pdefs_of u k).
  cbn [FragProg.pexec_l]. unfold pseq. cbn [FragProg.pexec_s FragFun.eval_r FragSem.eval_e pexc_of p_exc p_env p_saved p_log app].
  repeat split; reflexivity.
Qed.
Theorem pmodule_sim m : forallb psrc_t m = true -> forall d r sv,
  psim (prun binop cmpop unop truth cval is_and c pol fuel d (pinstr_module c ge m) r sv)
       (pref_module binop cmpop unop truth cval is_and c pol fuel ge d m r).
Proof.
  intros Hs d r sv. unfold pinstr_module, FragProg.pref_module.
  pose proof (pmodule_sim0 (prest m) (prest_src m Hs) d r sv) as M.
  destruct m as [|dd rest]; [exact M|]. unfold pdoc, prest in *. destruct (p_is_docstring dd) eqn:Ed; [|exact M].
  cbn [app]. destruct (prun_doc c pol dd (pinstr_module0 c ge rest) d r sv Ed) as (E1 & E2 & E3).
  destruct M as (M1 & M2 & M3). unfold psim. rewrite E1, E2, E3. repeat split; assumption.
Qed.


(* the source program as it is (no rewriting at all) computes the reference results *)
Section Plain.
Variable call : callT.
Variable callr : callR.
Hypothesis call_ok : call_res call callr.
Variable c0 : rcfg.                                (* whatever the run of the untouched source is given: it tests no guard *)
Variable pol0 : list entry -> guard -> bool.
Notation X_s := (FragProg.pexec_s binop cmpop unop truth cval is_and c0 pol0 fuel call).
Notation X_l := (FragProg.pexec_l binop cmpop unop truth cval is_and c0 pol0 fuel call).
Notation R_s := (pref_s callr).
Notation R_l := (pref_l callr).

Definition ploop0 (sc : scope) (glob : env) (t : texpr) (b o : list pstmt) :=
  fix loop (f : nat) (r : env) (saved : val) (pre : list entry) {struct f} : pres :=
    match f with
    | O => {| p_exc := Some (PO FFuel); p_env := r; p_saved := saved; p_log := [] |}
    | S f' =>
        let '(q, lt) := eval_e t (look sc glob r) in
        match q with
        | Err e => {| p_exc := Some (PO (FX e)); p_env := r; p_saved := saved; p_log := lt |}
        | Ok vt =>
            if truth vt then
              let a := X_l sc glob b r saved (pre ++ lt) in
              match p_exc a with
              | Some PBrk => {| p_exc := None; p_env := p_env a; p_saved := p_saved a; p_log := lt ++ p_log a |}
              | None | Some PCnt =>
                  let z := loop f' (p_env a) (p_saved a) (pre ++ lt ++ p_log a) in
                  {| p_exc := p_exc z; p_env := p_env z; p_saved := p_saved z; p_log := lt ++ p_log a ++ p_log z |}
              | Some _ => {| p_exc := p_exc a; p_env := p_env a; p_saved := p_saved a; p_log := lt ++ p_log a |}
              end
            else let a := X_l sc glob o r saved (pre ++ lt) in
                 {| p_exc := p_exc a; p_env := p_env a; p_saved := p_saved a; p_log := lt ++ p_log a |}
        end
    end.
Definition pfloop0 (sc : scope) (glob : env) (x : N) (b o : list pstmt) :=
  fix floop (k : nat) (i : Z) (r : env) (saved : val) (pre : list entry) {struct k} : pres :=
    match k with
    | O => X_l sc glob o r saved pre
    | S k' =>
        let a := X_l sc glob b (upd r x (VInt i)) saved pre in
        match p_exc a with
        | Some PBrk => {| p_exc := None; p_env := p_env a; p_saved := p_saved a; p_log := p_log a |}
        | None | Some PCnt =>
            let z := floop k' (i + 1)%Z (p_env a) (p_saved a) (pre ++ p_log a) in
            {| p_exc := p_exc z; p_env := p_env z; p_saved := p_saved z; p_log := p_log a ++ p_log z |}
        | Some _ => a
        end
    end.
Definition pres_eq (a : pres) (b : prres) : Prop := p_exc a = pr_exc b /\ p_env a = pr_env b.
Definition pplain_ok (s : pstmt) : Prop := psrc_t s = true -> forall q m sc glob r sv p p', pres_eq (X_s sc glob s r sv p) (R_s q m sc glob s r p').

(* results only: the simulation as a tracer subscribed to nothing sees it *)
Notation psim0 := (FragProgProofs.psim no_events).
Lemma fl0_eq (x y : list entry) : filter_log no_events x = filter_log no_events y.
Proof. rewrite !fl_no_events. reflexivity. Qed.
Lemma psim0_of a b : pres_eq a b -> psim0 a b.
Proof. intros (E1 & E2). repeat split; try assumption. apply fl0_eq. Qed.
Lemma pres_psim0 a b : psim0 a b -> pres_eq a b.
Proof. intros (E1 & E2 & _). split; assumption. Qed.

Lemma pplain_list u : Forall pplain_ok u -> forallb psrc_t u = true -> forall q m sc glob r sv p p',
  pres_eq (X_l sc glob u r sv p) (R_l q m sc glob u r p').
Proof.
  induction 1 as [|x u Hx _ IH]; intros Hs q m sc glob r sv p p'; [split; reflexivity|].
  apply andb_true_iff in Hs as [Hsx Hs]. apply pres_psim0, psim_seq; [apply fl0_eq| |intros r0 sv0 q0 q0' _]; apply psim0_of; [apply Hx|apply IH]; assumption.
Qed.
Lemma pplain_body u : Forall pplain_ok u -> forallb psrc_b u = true -> forall q sc glob r sv p p' l,
  psim0 (X_l sc glob u r sv p) {| pr_exc := pr_exc (R_l q false sc glob u r p'); pr_env := pr_env (R_l q false sc glob u r p'); pr_log := l |}.
Proof. intros F H q sc glob r sv p p' l. apply psim0_of. exact (pplain_list u F (psrc_b_t u H) q false sc glob r sv p p'). Qed.

Lemma pplain_loop q sc glob n t b o : src_e t = true -> Forall pplain_ok b -> Forall pplain_ok o ->
  forallb psrc_b b = true -> forallb psrc_b o = true ->
  forall f r sv p p', pres_eq (ploop0 sc glob t b o f r sv p) (prloop callr q sc glob n t b o f r p').
Proof.
  intros Ht Fb Fo Hb Ho f r sv p p'. apply pres_psim0. revert r sv p p'. induction f as [|f IH]; intros r sv p p'; [repeat split|].
  cbn [ploop0 prloop]. rewrite (eval_src t _ Ht). destruct (ref_e t (look sc glob r)) as [[vt|e] l]; cbn [fst snd]; [|repeat split; apply fl0_eq].
  destruct (truth vt).
  - apply psim_step; [apply fl0_eq..|apply pplain_body; assumption|intros; apply IH].
  - apply psim_pre; [apply fl0_eq|]. apply psim0_of, pplain_list; [exact Fo|exact (psrc_b_t o Ho)].
Qed.

Lemma pplain_floop q sc glob n x b o : Forall pplain_ok b -> Forall pplain_ok o ->
  forallb psrc_b b = true -> forallb psrc_b o = true ->
  forall k i r sv p p', pres_eq (pfloop0 sc glob x b o k i r sv p) (prfloop callr q sc glob n x b o k i r p').
Proof.
  intros Fb Fo Hb Ho k i r sv p p'. apply pres_psim0. revert i r sv p p'. induction k as [|k IH]; intros i r sv p p'; cbn [pfloop0 prfloop].
  - apply psim0_of, pplain_list; [exact Fo|exact (psrc_b_t o Ho)].
  - apply psim_fstep; [apply fl0_eq|apply pplain_body; assumption|intros; apply IH].
Qed.

Lemma rhs_plain_ok v : src_r v = true -> forall q lk gl sv p p',
  exists x sv' l l', eval_r call lk gl v sv p = (x, sv', l) /\ ref_r callr q lk gl v p' = (x, l').
Proof.
  intros Hs q lk gl sv p p'. apply (rhs_plain_elim binop cmpop unop truth cval is_and call callr call_ok); [exact Hs|].
  intros x sv' l l'. exists x, sv', l, l'. split; reflexivity.
Qed.

Theorem pplain_stmt : forall s, pplain_ok s.
Proof.
  induction s as [n v|n xs v|n|n t b o Fb Fo|n t b o Fb Fo|n x it b o Fb Fo|n|n|n v|n name ps body Fbody| | | | | |] using pstmt_ind'; intros Hs q m sc glob r sv pa pb; try discriminate Hs; cbn [psrc_t psrc_b] in Hs; rewrite pref_unfold; cbn [pid pbody_of pbody].
  - edestruct (rhs_plain_ok v Hs) as (x & sv' & l & l' & E1 & E2). cbn [FragProg.pexec_s]. rewrite E1, E2. split; reflexivity.
  - edestruct (rhs_plain_ok v Hs) as (x & sv' & l & l' & E1 & E2). cbn [FragProg.pexec_s]. rewrite E1, E2. destruct x; split; reflexivity.
  - split; reflexivity.
  - apply src3 in Hs as (Ht & Hb & Ho). rewrite pexec_unfold. cbn [pexec_body]. rewrite (eval_src t _ Ht). destruct (ref_e t (look sc glob r)) as [[vt|e] l]; cbn [fst snd]; [|split; reflexivity].
    destruct (truth vt); [exact (pplain_list b Fb (psrc_b_t b Hb) q false sc glob r sv _ _)|exact (pplain_list o Fo (psrc_b_t o Ho) q false sc glob r sv _ _)].
  - apply src3 in Hs as (Ht & Hb & Ho). rewrite pexec_PWhile. exact (pplain_loop q sc glob n t b o Ht Fb Fo Hb Ho fuel r sv _ _).
  - apply src3 in Hs as (Hi & Hb & Ho). rewrite pexec_PFor. edestruct (rhs_plain_ok it Hi) as (x0 & sv' & l & l' & E1 & E2). rewrite E1, E2.
    destruct x0 as [v|e]; [|split; reflexivity]. destruct v; try (split; reflexivity).
    exact (pplain_floop q sc glob n x b o Fb Fo Hb Ho _ _ r sv' _ _).
  - split; reflexivity.
  - split; reflexivity.
  - destruct v as [v|]; [|split; reflexivity].
    edestruct (rhs_plain_ok v Hs) as (x & sv' & l & l' & E1 & E2). cbn [FragProg.pexec_s]. rewrite E1, E2. split; reflexivity.
  - split; reflexivity.
Qed.
End Plain.

Variable c0 : rcfg.
Variable pol0 : list entry -> guard -> bool.
Lemma plain_step ftab call callr : tab_ok ftab -> call_res call callr ->
  call_res (pdo_call binop cmpop unop truth cval is_and c0 pol0 fuel ftab call) (pdo_callr binop cmpop unop truth cval is_and c pol fuel ge ftab callr).
Proof.
  intros Ht Hc f vs glob sv p p'. unfold pdo_call, pdo_callr.
  destruct (ftab f) as [[ps body]|] eqn:Ef; [|reflexivity].
  destruct (Nat.eqb (length ps) (length vs)); [|reflexivity]. cbn [fst snd].
  edestruct (pplain_list call callr c0 pol0 body (Forall_all _ (pplain_stmt call callr Hc c0 pol0) body) (psrc_b_t body (Ht f ps body Ef))) as [B1 _]. rewrite B1. reflexivity.
Qed.

Theorem plain_calls ftab : tab_ok ftab -> forall d,
  call_res (pcall binop cmpop unop truth cval is_and c0 pol0 fuel ftab d) (pcallr binop cmpop unop truth cval is_and c pol fuel ge ftab d).
Proof.
  intros Ht. induction d as [|d IH].
  - intros f vs glob sv p p'. reflexivity.
  - cbn [pcall pcallr]. apply plain_step; assumption.
Qed.

Theorem pplain_module0 m : forallb psrc_t m = true -> forall d r sv,
  pres_eq (prun binop cmpop unop truth cval is_and c0 pol0 fuel d m r sv) (pref_module0 binop cmpop unop truth cval is_and c pol fuel ge d m r).
Proof.
  intros Hs d r sv. unfold prun, FragProg.pref_module0.
  pose proof (plain_calls (pdefs_of m) (pdefs_src m Hs) d) as Hc.
  edestruct (pplain_list _ _ c0 pol0 m (Forall_all _ (pplain_stmt _ _ Hc c0 pol0) m) Hs) as [B1 B2]. split; [exact B1|exact B2].
Qed.
Theorem pplain_module m : forallb psrc_t m = true -> forall d r sv,
  pres_eq (prun binop cmpop unop truth cval is_and c0 pol0 fuel d m r sv) (pref_module binop cmpop unop truth cval is_and c pol fuel ge d m r).
Proof.
  intros Hs d r sv. unfold FragProg.pref_module.
  pose proof (pplain_module0 (prest m) (prest_src m Hs) d r sv) as M.
  destruct m as [|dd rest]; [exact M|]. unfold prest in *. destruct (p_is_docstring dd) eqn:Ed; [|exact M].
  destruct (prun_doc c0 pol0 dd rest d r sv Ed) as (E1 & E2 & _). destruct M as (M1 & M2). unfold pres_eq. rewrite E1, E2. split; assumption.
Qed.

(* scoping, as in FragFunProofs.v: the instrumented copy of a body assigns no name the pristine copy does not assign *)
Lemma passigned_PIf n t b o : passigned (PIf n t b o) = flat_map passigned b ++ flat_map passigned o.
Proof. reflexivity. Qed.
Lemma passigned_PBefore n tb own : passigned (PBefore n tb own) = flat_map passigned tb ++ flat_map passigned own.
Proof. reflexivity. Qed.

Lemma passigned_PWhile n t b o : passigned (PWhile n t b o) = flat_map passigned b ++ flat_map passigned o.
Proof. reflexivity. Qed.
Lemma passigned_PFor n x it b o : passigned (PFor n x it b o) = x :: flat_map passigned b ++ flat_map passigned o.
Proof. reflexivity. Qed.
Lemma passigned_ppr_list g' (u : list pstmt) : Forall (fun s => passigned (ppr g' s) = passigned s) u -> flat_map passigned (map (ppr g') u) = flat_map passigned u.
Proof. induction 1 as [|x u Hx _ IH]; [reflexivity|]. cbn [map flat_map]. rewrite Hx, IH. reflexivity. Qed.
Lemma passigned_ppr g' : forall s, passigned (ppr g' s) = passigned s.
Proof.
  induction s as [n v|n xs v|n|n t b o Fb Fo|n t b o Fb Fo|n x it b o Fb Fo|n|n|n v|n name ps body Fbody| | | | | |] using pstmt_ind'; cbn [ppr]; try reflexivity.
  - rewrite !passigned_PIf, (passigned_ppr_list g' b Fb), (passigned_ppr_list g' o Fo). reflexivity.
  - destruct g'; [change (passigned (PWhileG n (GTest n) t t (map (ppr true) b) (map (ppr true) o)))
                    with (flat_map passigned (map (ppr true) b) ++ flat_map passigned (map (ppr true) o))|];
      rewrite ?passigned_PWhile, (passigned_ppr_list _ b Fb), (passigned_ppr_list _ o Fo); reflexivity.
  - rewrite !passigned_PFor, (passigned_ppr_list g' b Fb), (passigned_ppr_list g' o Fo). reflexivity.
Qed.
Lemma passigned_ppr_map g' u : flat_map passigned (map (ppr g') u) = flat_map passigned u.
Proof. apply passigned_ppr_list, Forall_all, passigned_ppr. Qed.

Definition asg_ok (s : pstmt) : Prop := psrc_t s = true -> forall m x, In x (flat_map passigned (pis c ge m s)) -> In x (passigned s).

Lemma asg_list u : Forall asg_ok u -> forallb psrc_t u = true -> forall m, incl (flat_map passigned (flat_map (pis c ge m) u)) (flat_map passigned u).
Proof.
  induction 1 as [|s u Hs _ IH]; intros Hu m; [apply incl_refl|].
  apply andb_true_iff in Hu as [H1 H2]. cbn [flat_map]. rewrite flat_map_app. apply incl_app_app; [exact (Hs H1 m)|exact (IH H2 m)].
Qed.
Lemma asg_body u : Forall asg_ok u -> forallb psrc_b u = true -> incl (flat_map passigned (flat_map (pis c ge false) u)) (flat_map passigned u).
Proof. intros F H. exact (asg_list u F (psrc_b_t u H) false). Qed.

Lemma asg_wrap m k own : flat_map passigned (stmt_wrap m k own) = flat_map passigned own.
Proof.
  unfold stmt_wrap. cbv zeta.
  assert (HE : flat_map passigned (if sub c E_before_stmt then [PBefore k (pthunk_branch m k) own] else own) = flat_map passigned own).
  { destruct (sub c E_before_stmt); [|reflexivity]. cbn [flat_map]. rewrite passigned_PBefore, app_nil_r.
    unfold pthunk_branch, pmain_and_after. destruct (pwants m), m; reflexivity. }
  destruct (m && sub c E_after_module_stmt); [rewrite flat_map_app, HE; apply app_nil_r|exact HE].
Qed.

Lemma asg_own m s : incl (flat_map passigned (pown_of m s)) (passigned (pmain_of s)).
Proof.
  rewrite pown_of_eq. unfold pmain_and_after. destruct (p_is_return s), (pwants m), (p_is_expr s && m); cbn [flat_map passigned app]; rewrite ?app_nil_r;
    intros x H; try exact H; destruct H.
Qed.

Lemma asg_assemble s : incl (passigned (pmain_of s)) (passigned s) -> forall m x, In x (flat_map passigned (pis c ge m s)) -> In x (passigned s).
Proof. intros HM m. rewrite pis_unfold, asg_wrap. exact (incl_tran (asg_own m s) HM). Qed.

Lemma asg_finally ea n gk B : flat_map passigned (finally_emit ea n gk B) = flat_map passigned B.
Proof.
  unfold finally_emit. destruct (sub c ea); [|reflexivity].
  change (flat_map passigned [PTry B [PEmit ea n None gk]]) with ((flat_map passigned B ++ []) ++ []). rewrite !app_nil_r. reflexivity.
Qed.
Lemma asg_guarded G g n B P : incl (flat_map passigned (guarded G g n B P)) (flat_map passigned B ++ flat_map passigned P).
Proof.
  unfold guarded. destruct G.
  - change (flat_map passigned [PGuardIf g (if sub c (before_event g) then Some n else None) B P]) with ((flat_map passigned B ++ flat_map passigned P) ++ []).
    rewrite app_nil_r. apply incl_refl.
  - rewrite flat_map_app. apply incl_app; [destruct (sub c (before_event g)); intros x []|apply incl_appl, incl_refl].
Qed.
Lemma asg_loop_body g n ea gk b : Forall asg_ok b -> forallb psrc_b b = true ->
  incl (flat_map passigned (guarded ge g n (finally_emit ea n gk (flat_map (pis c ge false) b)) (map (ppr ge) b))) (flat_map passigned b).
Proof.
  intros Fb Hb. eapply incl_tran; [apply asg_guarded|]. rewrite asg_finally, passigned_ppr_map. apply incl_app; [exact (asg_body b Fb Hb)|apply incl_refl].
Qed.

Lemma passigned_main_while n t b o : passigned (pmain_of (PWhile n t b o)) = flat_map passigned (W_body n b) ++ flat_map passigned (W_o' o).
Proof. unfold pmain_of, pmain, W_body, W_after, W_o', W_b'. destruct ge; reflexivity. Qed.

Theorem passigned_pis : forall s, asg_ok s.
Proof.
  induction s as [n v|n xs v|n|n t b o Fb Fo|n t b o Fb Fo|n x it b o Fb Fo|n|n|n v|n name ps body Fbody| | | | | |] using pstmt_ind'; intros Hs; try discriminate Hs; cbn [psrc_t psrc_b] in Hs; apply asg_assemble; try apply incl_refl.
  - (* if *) apply src3 in Hs as (Ht & Hb & Ho). exact (incl_app_app (asg_body b Fb Hb) (asg_body o Fo Ho)).
  - (* while *) apply src3 in Hs as (Ht & Hb & Ho). rewrite passigned_main_while.
    exact (incl_app_app (asg_loop_body (GBody n) n E_after_while_loop_iter _ b Fb Hb) (asg_body o Fo Ho)).
  - (* for *) apply src3 in Hs as (Hi & Hb & Ho). rewrite pmain_for.
    exact (incl_app_app (incl_refl [x]) (incl_app_app (asg_loop_body (GFBody n) n E_after_for_loop_iter _ b Fb Hb) (asg_body o Fo Ho))).
  - (* return *) destruct v; apply incl_refl.
Qed.

Corollary passigned_instr_sub body : forallb psrc_b body = true -> forall x, In x (passigned_l (flat_map (pis c ge false) body)) -> In x (passigned_l body).
Proof.
  intros Hb. apply asg_body; [|exact Hb]. apply Forall_all, passigned_pis.
Qed.
End ProgProofs.

(* when no handler touches a guard (the guards stay as they are: a constant policy), the reference does not depend on what is subscribed:
   the subscription enters it only under `pgon c pol`, which for a constant policy reduces to the guard's state *)
Section RefIndep.
Variables (c1 c2 : rcfg) (G : guard -> bool) (fuel : nat) (ge : bool).
Notation P := (fun (_ : list entry) (g : guard) => G g).
Notation S1 := (FragProg.pref_s binop cmpop unop truth cval is_and c1 P fuel ge).
Notation S2 := (FragProg.pref_s binop cmpop unop truth cval is_and c2 P fuel ge).
Notation L1 := (FragProg.pref_l binop cmpop unop truth cval is_and c1 P fuel ge).
Notation L2 := (FragProg.pref_l binop cmpop unop truth cval is_and c2 P fuel ge).
Notation F1 := (prfloop c1 P fuel ge).
Notation F2 := (prfloop c2 P fuel ge).

(* the list and `for` steps of the same independence by induction, for two call oracles; pref_module_indep does not need them, since it holds by computation *)
Section W.
Variables callr1 callr2 : callR.

Definition indep_ok (s : pstmt) : Prop := forall q m sc glob r pre, S1 callr1 q m sc glob s r pre = S2 callr2 q m sc glob s r pre.

Lemma indep_list u : Forall indep_ok u -> forall q m sc glob r pre, L1 callr1 q m sc glob u r pre = L2 callr2 q m sc glob u r pre.
Proof.
  induction 1 as [|x u Hx _ IH]; intros q m sc glob r pre; [reflexivity|].
  rewrite (pref_l_cons c1), (pref_l_cons c2), Hx.
  unfold prseq. destruct (pr_exc (S2 callr2 q m sc glob x r pre)); [reflexivity|]. rewrite IH. reflexivity.
Qed.

Lemma indep_floop n x b o : Forall indep_ok b -> Forall indep_ok o -> forall q sc glob k i r pre,
  F1 callr1 q sc glob n x b o k i r pre = F2 callr2 q sc glob n x b o k i r pre.
Proof.
  intros Fb Fo q sc glob. induction k as [|k IH]; intros i r pre.
  - cbn [prfloop]. apply (indep_list o Fo).
  - cbn [prfloop]. unfold FragProg.pgon. rewrite (indep_list b Fb).
    destruct (pr_exc (L2 callr2 _ false sc glob b _ _)) as [[x0| |]|]; rewrite ?IH; reflexivity.
Qed.
End W.

Lemma pref_l_c callr : L1 callr = L2 callr.
Proof. reflexivity. Qed.
Lemma pcallr_c ptab : pcallr binop cmpop unop truth cval is_and c1 P fuel ge ptab = pcallr binop cmpop unop truth cval is_and c2 P fuel ge ptab.
Proof. reflexivity. Qed.

Theorem pref_module_indep d m r :
  pref_module binop cmpop unop truth cval is_and c1 P fuel ge d m r = pref_module binop cmpop unop truth cval is_and c2 P fuel ge d m r.
Proof. unfold FragProg.pref_module, FragProg.pref_module0. rewrite pcallr_c, pref_l_c. reflexivity. Qed.
End RefIndep.

Section FinalProg.
Variable fuel : nat.
Notation X := (fun c pol => prun binop cmpop unop truth cval is_and c pol fuel).
Notation RM := (fun c pol => pref_module binop cmpop unop truth cval is_and c pol fuel).

(* the instrumented program, whatever is subscribed and however the guards are flipped, computes what the untouched source computes *)
Theorem prog_plain c ge pol c0 pol0 m d r sv sv' : forallb psrc_t m = true ->
  p_exc (X c pol d (pinstr_module c ge m) r sv) = p_exc (X c0 pol0 d m r sv') /\
  p_env (X c pol d (pinstr_module c ge m) r sv) = p_env (X c0 pol0 d m r sv').
Proof.
  intros Hs. destruct (pmodule_sim c pol fuel ge m Hs d r sv) as (A1 & A2 & _).
  destruct (pplain_module c pol fuel ge c0 pol0 m Hs d r sv') as (B1 & B2).
  rewrite A1, A2, B1, B2. split; reflexivity.
Qed.

Theorem prog_results c1 ge1 pol1 c2 ge2 pol2 m d r sv sv' : forallb psrc_t m = true ->
  p_exc (X c1 pol1 d (pinstr_module c1 ge1 m) r sv) = p_exc (X c2 pol2 d (pinstr_module c2 ge2 m) r sv') /\
  p_env (X c1 pol1 d (pinstr_module c1 ge1 m) r sv) = p_env (X c2 pol2 d (pinstr_module c2 ge2 m) r sv').
Proof.
  intros Hs. destruct (prog_plain c1 ge1 pol1 c1 pol1 m d r sv sv Hs) as (A1 & A2). destruct (prog_plain c2 ge2 pol2 c1 pol1 m d r sv' sv Hs) as (B1 & B2).
  rewrite A1, A2, B1, B2. split; reflexivity.
Qed.

(* ... and delivers the reference stream: every event of the fragment once per dynamic occurrence, in evaluation order, gated by the guards *)
Theorem prog_stream c ge pol m d r sv : forallb psrc_t m = true ->
  filter_log c (p_log (X c pol d (pinstr_module c ge m) r sv)) = filter_log c (pr_log (RM c pol ge d m r)).
Proof. intros Hs. exact (proj2 (proj2 (pmodule_sim c pol fuel ge m Hs d r sv))). Qed.

(* C03 on the fragment: as long as no handler touches a guard (the guards stay in any fixed state G), what a tracer sees for its events K does
   not depend on which further events E are subscribed *)
Theorem prog_projection K E (G : guard -> bool) ge m d r sv sv' : forallb psrc_t m = true -> (forall e, sub K e = true -> sub E e = true) ->
  filter_log K (p_log (prun binop cmpop unop truth cval is_and E (fun _ g => G g) fuel d (pinstr_module E ge m) r sv)) =
  filter_log K (p_log (prun binop cmpop unop truth cval is_and K (fun _ g => G g) fuel d (pinstr_module K ge m) r sv')).
Proof.
  intros Hs HKE.
  pose proof (prog_stream K ge (fun _ g => G g) m d r sv' Hs) as HK. pose proof (prog_stream E ge (fun _ g => G g) m d r sv Hs) as HE. cbv beta in HK, HE.
  rewrite HK. rewrite <- (filter_sub K E _ HKE), HE, (filter_sub K E _ HKE).
  rewrite (pref_module_indep E K G fuel ge d m r). reflexivity.
Qed.
End FinalProg.
End Prog.
