From Coq Require Import List NArith Bool Arith.
Import ListNotations.
From PyccoloV Require Import model.SysHist.

Fixpoint node_ind2 (P : node -> Prop) (H : forall t cs, Forall P cs -> P (Nd t cs)) (n : node) : P n :=
  match n with
  | Nd t cs => H t cs ((fix go (l : list node) : Forall P l :=
                          match l with [] => Forall_nil P | x :: l' => Forall_cons x (node_ind2 P H x) (go l') end) cs)
  end.

Section Proofs.
Variable tps : nat -> third.
Variable sub : sevt -> bool.
Notation plain := (plain tps).
Notation pyc := (pyc tps sub true true true).
Notation call_tp := (call_tp tps).
Notation call_existing := (call_existing tps true).
Notation py_event := (py_event tps sub true true).

(* a log of the pyccolo machine shows the third parties what the plain machine's log `lp` shows them,
   and the handlers the subscribed ones among the plain recorder's events `evs` *)
Definition agree (l lp : list logent) (evs : list (sevt * N)) : Prop :=
  third_log l = lp /\ handler_log l = filter (fun e => sub (fst e)) evs.

Lemma agree_app {l l' lp lp' evs evs'} : agree l lp evs -> agree l' lp' evs' -> agree (l ++ l') (lp ++ lp') (evs ++ evs').
Proof.
  intros [<- H] [<- H']. split.
  - apply filter_app.
  - unfold handler_log. rewrite !filter_app, map_app. f_equal; assumption.
Qed.
Lemma agree_handlers acc e name : agree (if acc && sub e then [(WH, e, name)] else []) [] (if acc then [(e, name)] else []).
Proof. unfold agree. destruct acc; cbn; [destruct (sub e)|]; split; reflexivity. Qed.
Lemma agree_call_tp f e name : agree (snd (call_tp f e name)) (snd (call_tp f e name)) [].
Proof. destruct f, e; split; reflexivity. Qed.
Lemma agree_call_existing g l e name : agree (snd (call_existing g l e name)) (snd (call_existing g l e name)) [].
Proof. destruct l as [f|], g; try apply agree_call_tp; split; reflexivity. Qed.

(* the plain interpreter delivers a non-call event as _call_existing_tracer does when it checks for an uninstalled function *)
Lemma plain_items_event rec name t cs its g lp :
  match t with
  | TLine | TExc =>
      plain_items tps rec name (Nd t cs :: its) g lp =
      let '(r, l) := call_existing g lp (match t with TExc => SExc | _ => SLine end) name in
      let '(g2, lp2, l') := plain_items tps rec name its g (keep lp r) in (g2, lp2, l ++ l')
  | _ => True
  end.
Proof.
  destruct t; trivial; cbn [plain_items].
  all: destruct g, lp; cbn; try reflexivity; now destruct (plain_items tps rec name its _ _) as [[? ?] ?].
Qed.
Lemma plain_return g lp e name :
  match g, lp with Some _, Some f => snd (call_tp f e name) | _, _ => [] end = snd (call_existing g lp e name).
Proof. destruct g, lp; reflexivity. Qed.

(* the local function handed to the interpreter under pyccolo, given the third party's (lp) *)
Definition rel (acc : bool) (ft : pyf) (lp : option tpf) : Prop :=
  ft = if acc then PComp lp else match lp with None => PNone | Some f => PComp (Some f) end.

Lemma composed_event g acc name lp e :
  let '(ft1, l) := py_event g acc name (PComp lp) e in
  let '(r, lpl) := call_existing g lp e name in
  ft1 = PComp (keep lp r) /\ agree l lpl (if acc then [(e, name)] else []).
Proof.
  cbn [py_event]. pose proof (agree_call_existing g lp e name) as A. destruct (call_existing g lp e name) as [r lpl].
  split; [reflexivity|]. rewrite <- (app_nil_r (if acc then _ else _)). exact (agree_app (lp:=[]) (agree_handlers acc e name) A).
Qed.

Lemma event_step g acc name ft lp e : rel acc ft lp ->
  let '(ft1, l) := py_event g acc name ft e in
  let '(r, lpl) := call_existing g lp e name in
  rel acc ft1 (keep lp r) /\ agree l lpl (if acc then [(e, name)] else []).
Proof.
  intros R. unfold rel in R. subst ft. destruct acc; [exact (composed_event g true name lp e)|].
  destruct lp as [f|]; [|repeat split].
  pose proof (composed_event g false name (Some f) e) as C.
  destruct (py_event g false name (PComp (Some f)) e) as [ft1 l], (call_existing g (Some f) e name) as [r lpl].
  destruct C as [-> A]. split; [destruct r; reflexivity|exact A].
Qed.

Definition good (n : node) : Prop := forall g,
  fst (pyc g n) = fst (plain g n) /\ agree (snd (pyc g n)) (snd (plain g n)) (events n).

Definition sim acc (p : option nat * pyf * list logent) (q : option nat * option tpf * list logent) evs : Prop :=
  let '(ex1, ft1, l) := p in let '(g1, lp1, lpl) := q in ex1 = g1 /\ rel acc ft1 lp1 /\ agree l lpl evs.

Lemma sim_cons acc l lpl evs p q evs' : agree l lpl evs -> sim acc p q evs' ->
  sim acc (let '(ex, ft, l') := p in (ex, ft, l ++ l')) (let '(g, lp, lpl') := q in (g, lp, lpl ++ lpl')) (evs ++ evs').
Proof. destruct p as [[? ?] ?], q as [[? ?] ?]. intros A (E & R & A'). split; [|split]; trivial. exact (agree_app A A'). Qed.

Lemma items_good acc name its : Forall good its -> forall g ft lp, rel acc ft lp ->
  sim acc (py_items tps sub true true pyc acc name its g ft) (plain_items tps plain name its g lp) (events_items events acc name its).
Proof.
  induction 1 as [|[t cs] its Hit _ IH]; intros g ft lp R.
  - repeat split; assumption.
  - destruct t as [a nm| | |x].
    + cbn [py_items plain_items events_items]. destruct (Hit g) as [E A].
      destruct (pyc g (Nd (TFrame a nm) cs)) as [ex1 l], (plain g (Nd (TFrame a nm) cs)) as [g1 lpl]. cbn [fst snd] in E, A. subst g1.
      apply sim_cons; [exact A|apply IH, R].
    + rewrite (plain_items_event plain name TLine). cbn [py_items events_items].
      pose proof (event_step g acc name ft lp SLine R) as S.
      destruct (py_event g acc name ft SLine) as [ft1 l], (call_existing g lp SLine name) as [r lpl]. destruct S as [R1 A].
      apply sim_cons; [exact A|apply IH, R1].
    + rewrite (plain_items_event plain name TExc). cbn [py_items events_items].
      pose proof (event_step g acc name ft lp SExc R) as S.
      destruct (py_event g acc name ft SExc) as [ft1 l], (call_existing g lp SExc name) as [r lpl]. destruct S as [R1 A].
      apply sim_cons; [exact A|apply IH, R1].
    + apply (IH x ft lp R).
Qed.

Theorem all_good : forall n, good n.
Proof.
  intros n. induction n as [t cs IH] using node_ind2. destruct t as [acc name| | |x]; try (intros g0; repeat split; fail).
  intros g. cbn [model.SysHist.pyc model.SysHist.plain events].
  set (c0 := match g with Some i => call_tp (FGlob i) SCall name | None => (None, []) end).
  assert (A0 : agree (snd c0) (snd c0) []) by (destruct g; [apply agree_call_tp|split; reflexivity]).
  destruct c0 as [r lg].
  pose proof (items_good acc name cs IH g _ r eq_refl) as S.
  destruct (py_items tps sub true true pyc acc name cs g _) as [[ex1 ft1] l1], (plain_items tps plain name cs g r) as [[g1 lp1] lpl].
  destruct S as (-> & R1 & A1).
  pose proof (event_step g1 acc name ft1 lp1 SRet R1) as S. rewrite plain_return.
  destruct (py_event g1 acc name ft1 SRet) as [ft2 l2], (call_existing g1 lp1 SRet name) as [r' lpl2]. destruct S as [_ A2].
  split; [reflexivity|]. 
  apply (agree_app (lp:=[]) (agree_handlers acc SCall name)). apply (agree_app (evs:=[]) A0). exact (agree_app A1 A2).
Qed.
End Proofs.

(* the two repaired defects as witnesses: third party 0 is installed before the context; user code calls sys.settrace(None) between two
   lines of a running frame *)
Definition tp_all : nat -> third := fun _ => {| tp_accepts := fun _ => true; tp_self := false; tp_switch := false |}.
Definition tp_sw : nat -> third := fun _ => {| tp_accepts := fun _ => true; tp_self := false; tp_switch := true |}.
Definition ex_hist (acc : bool) : node := Nd (TFrame acc 1%N) [Nd TLine []; Nd (TSet None) []; Nd TLine []].
Example no_uninstall_check_refuted :
  third_log (snd (model.SysHist.pyc tp_all (fun _ => true) false true true (Some 0) (ex_hist true))) <> snd (model.SysHist.plain tp_all (Some 0) (ex_hist true)).
Proof. vm_compute. discriminate. Qed.
Example raw_foreign_refuted :
  third_log (snd (model.SysHist.pyc tp_all (fun _ => true) true false true (Some 0) (ex_hist false))) <> snd (model.SysHist.plain tp_all (Some 0) (ex_hist false)).
Proof. vm_compute. discriminate. Qed.

(* a third party whose local function hands over to a second one at its first event (the pattern of debuggers: until the first line,
   then the rest): a composed tracer that does not follow the hand-over (repaired by ed948fd) lets the first function keep receiving
   everything *)
Definition ex_sw : node := Nd (TFrame true 1%N) [Nd TLine []; Nd TLine []].
Example no_rebind_refuted :
  third_log (snd (model.SysHist.pyc tp_sw (fun _ => true) true true false (Some 0) ex_sw)) <> snd (model.SysHist.plain tp_sw (Some 0) ex_sw)
  /\ snd (model.SysHist.plain tp_sw (Some 0) ex_sw) = [(WG 0, SCall, 1%N); (WL 0, SLine, 1%N); (WL2 0, SLine, 1%N); (WL2 0, SRet, 1%N)].
Proof. vm_compute. split; [discriminate|reflexivity]. Qed.
