(* C20, about model/Stack.v: push saves and resets the registered fields; a well-nested block that runs leaves every stack its
   frames; `push s; B; pop s` and clear put the fields back; get_field at depth k reads what the field held k pushes ago. *)
From Coq Require Import List ZArith NArith Bool Lia.
Import ListNotations.
From PyccoloV Require Import model.Stack proofs.ListFacts.

Lemma dget_dset_same m f v : dget (dset m f v) f = Some v.
Proof.
  induction m as [|[g w] m IH]; cbn; [now rewrite N.eqb_refl|].
  destruct (N.eqb g f) eqn:E; cbn; rewrite E; auto.
Qed.
Lemma dget_dset_other m f g v : f <> g -> dget (dset m g v) f = dget m f.
Proof.
  intros Hn. induction m as [|[h w] m IH]; cbn.
  - destruct (N.eqb_spec g f); congruence.
  - destruct (N.eqb_spec h g) as [->|]; cbn; [|now rewrite IH].
    destruct (N.eqb_spec g f); congruence.
Qed.
Lemma dget_ddel_same m f : dget (ddel m f) f = None.
Proof.
  unfold ddel. induction m as [|[g w] m IH]; cbn; auto.
  destruct (N.eqb g f) eqn:E; cbn; auto. rewrite E; auto.
Qed.
Lemma dget_ddel_other m f g : f <> g -> dget (ddel m g) f = dget m f.
Proof.
  intros Hn. unfold ddel. induction m as [|[h w] m IH]; cbn; auto.
  destruct (N.eqb_spec h g) as [->|]; cbn; [|now rewrite IH].
  destruct (N.eqb_spec g f); congruence.
Qed.

Lemma dget_set_all_notin ns : forall m vs f, ~ In f ns -> dget (set_all m ns vs) f = dget m f.
Proof.
  induction ns as [|n ns IH]; intros m [|v vs] f Hn; cbn; auto.
  apply not_in_cons in Hn as [Hne Hn]. rewrite IH by assumption. now apply dget_dset_other.
Qed.
Lemma get_all_cons m n ns t : get_all m (n :: ns) = Some t ->
  exists v vs, t = v :: vs /\ dget m n = Some v /\ get_all m ns = Some vs.
Proof. cbn. destruct (dget m n) as [v|], (get_all m ns) as [vs|]; try discriminate. intros [= <-]. eauto. Qed.
Lemma get_all_length ns : forall m t, get_all m ns = Some t -> length t = length ns.
Proof.
  induction ns as [|n ns IH]; intros m t H; [now inversion H|].
  apply get_all_cons in H as (v & vs & -> & _ & H). cbn. f_equal. eauto.
Qed.
(* zip(names, tuple) restores, on ANY later dictionary, the values the names had when the tuple was taken *)
Lemma set_all_restores ns : forall m0 t, get_all m0 ns = Some t ->
  forall m f, In f ns -> dget (set_all m ns t) f = dget m0 f.
Proof.
  induction ns as [|n ns IH]; intros m0 t Hg m f Hin; [destruct Hin|].
  apply get_all_cons in Hg as (v & vs & -> & Hv & Hg). cbn.
  destruct (in_dec N.eq_dec f ns) as [Hi|Hni]; [now apply (IH m0)|].
  destruct Hin as [->|Hin]; [|contradiction].
  now rewrite dget_set_all_notin, dget_dset_same.
Qed.
Lemma get_all_index ns : forall m t f, get_all m ns = Some t -> In f ns ->
  exists i v, index_of f ns = Some i /\ nth_error t i = Some v /\ dget m f = Some v.
Proof.
  induction ns as [|n ns IH]; intros m t f Hg Hin; [destruct Hin|].
  apply get_all_cons in Hg as (v & vs & -> & Hv & Hg). cbn.
  destruct (N.eqb_spec n f) as [->|Hne]; [now exists 0%nat, v|].
  destruct Hin as [->|Hin]; [congruence|].
  destruct (IH _ _ _ Hg Hin) as (i & w & -> & Hw). now exists (S i), w.
Qed.

Lemma dget_reinit_notin au : forall m f, ~ In f (map fst au) -> dget (reinit m au) f = dget m f.
Proof.
  unfold reinit. induction au as [|[g i] au IH]; intros m f Hn; cbn; auto.
  apply not_in_cons in Hn as [Hne Hn]. rewrite IH by assumption. now apply dget_dset_other.
Qed.
Lemma dget_reinit_in au : forall m f i, NoDup (map fst au) -> In (f, i) au -> dget (reinit m au) f = Some (run_init i).
Proof.
  induction au as [|[g j] au IH]; intros m f i Hnd Hin; [destruct Hin|].
  inversion Hnd as [|? ? Hnotin Hnd']; subst. destruct Hin as [[= -> ->]|Hin]; [|now apply IH].
  change (dget (reinit (dset m f (run_init i)) au) f = Some (run_init i)).
  now rewrite dget_reinit_notin, dget_dset_same.
Qed.
Lemma dget_del_all_notin ns : forall m f, ~ In f ns -> dget (del_all m ns) f = dget m f.
Proof.
  unfold del_all. induction ns as [|n ns IH]; intros m f Hn; cbn; auto.
  apply not_in_cons in Hn as [Hne Hn]. rewrite IH by assumption. now apply dget_ddel_other.
Qed.
Lemma dget_del_all_in ns : forall m f, In f ns -> dget (del_all m ns) f = None.
Proof.
  induction ns as [|n ns IH]; intros m f Hin; [destruct Hin|].
  destruct (in_dec N.eq_dec f ns) as [Hi|Hni]; [now apply IH|].
  destruct Hin as [->|Hin]; [|contradiction].
  change (dget (del_all (ddel m f) ns) f = None). now rewrite dget_del_all_notin, dget_ddel_same.
Qed.

Record wf_decl (s : field) (d : decl) : Prop := {
  wf_nodup : NoDup (names d);
  wf_self : ~ In s (names d) }.
Definition wf (ds : decls) : Prop := forall s d, decl_of ds s = Some d -> wf_decl s d.

Definition is_err (o : out) : bool :=
  match o with ErrKey | ErrIndex | ErrValue | ErrAttr => true | _ => false end.

Lemma dget_reset_notin d m f : ~ In f (names d) -> dget (del_all (reinit m (auto d)) (manual d)) f = dget m f.
Proof. unfold names. rewrite in_app_iff. intros H. rewrite dget_del_all_notin, dget_reinit_notin; tauto. Qed.

Lemma frames_of_dset_same m s fr : frames_of (dset m s (VStack fr)) s = Some fr.
Proof. unfold frames_of. now rewrite dget_dset_same. Qed.
Lemma frames_of_eq m m' s : dget m' s = dget m s -> frames_of m' s = frames_of m s.
Proof. unfold frames_of. now intros ->. Qed.

Theorem push_resets ds : wf ds -> forall s m m' r, step ds m (OPush s) = (m', r) -> is_err r = false ->
  exists d fr t, decl_of ds s = Some d /\ frames_of m s = Some fr /\ get_all m (names d) = Some t /\
    frames_of m' s = Some (fr ++ [t]) /\
    (forall f i, In (f, i) (auto d) -> dget m' f = Some (run_init i)) /\
    (forall f, In f (manual d) -> dget m' f = None) /\
    (forall g, g <> s -> ~ In g (names d) -> dget m' g = dget m g).
Proof.
  intros Hwf s m m' r Hs He. cbn in Hs.
  destruct (decl_of ds s) as [d|] eqn:Hd; [|inversion Hs; subst; discriminate].
  destruct (frames_of m s) as [fr|] eqn:Hfr; [|inversion Hs; subst; discriminate].
  destruct (get_all m (names d)) as [t|] eqn:Hga; inversion Hs; subst; [|discriminate].
  destruct (Hwf _ _ Hd) as [Hnd Hself]. apply NoDup_app_inv in Hnd as (Hnd & _ & Hdisj).
  exists d, fr, t. repeat split; auto.
  - rewrite <- (frames_of_dset_same m s (fr ++ [t])). apply frames_of_eq. now apply dget_reset_notin.
  - intros f i Hin. apply (in_map fst) in Hin as Hf.
    rewrite dget_del_all_notin by now apply Hdisj. now apply dget_reinit_in.
  - intros f Hin. now apply dget_del_all_in.
  - intros g Hgs Hn. rewrite dget_reset_notin by assumption. now apply dget_dset_other.
Qed.

Lemma do_pop_snoc d m s fr t : do_pop d m s (fr ++ [t]) = (set_all (dset m s (VStack fr)) (names d) t, Done).
Proof. unfold do_pop. rewrite rev_app_distr. cbn. now rewrite rev_involutive. Qed.

(* the operations that are neither push, pop nor clear: assignments, in-place mutations, and the reads and checks *)
Definition is_mut (o : op) : bool :=
  match o with OSet _ _ | OAppend _ _ | OAppendIn _ _ _ | ORead _ _ _ | OLen _ | OPushCheck _ => true | _ => false end.

(* what such an operation does to the dictionary, if anything: a field that holds no stack gets a value that is no stack *)
Definition plain (v : val) : Prop := match v with VStack _ => False | _ => True end.
Lemma frames_of_dset_plain m g v : frames_of m g = None -> plain v -> forall s, frames_of (dset m g v) s = frames_of m s.
Proof.
  intros Hg Hv s. destruct (N.eq_dec s g) as [->|Hne]; [|apply frames_of_eq; now apply dget_dset_other].
  rewrite Hg. unfold frames_of. rewrite dget_dset_same. now destruct v.
Qed.
Lemma step_mut_frames ds m o : is_mut o = true -> forall s, frames_of (fst (step ds m o)) s = frames_of m s.
Proof.
  destruct o; try discriminate; intros _; cbn.
  - destruct (decl_of ds s); [destruct (forallb _ _)|]; reflexivity.
  - pose proof (frames_of_dset_plain m g v) as H. unfold frames_of in H at 1.
    destruct v; try reflexivity; destruct (dget m g) as [[]|]; try reflexivity; now apply H.
  - pose proof (frames_of_dset_plain m g) as H. unfold frames_of in H at 1.
    destruct (dget m g) as [[]|]; try reflexivity. destruct (N.eqb k 3); [reflexivity|now apply H].
  - pose proof (frames_of_dset_plain m g) as H. unfold frames_of in H at 1.
    destruct (dget m g) as [[]|]; try reflexivity. destruct (nth_error inner i); [now apply H|reflexivity].
  - destruct (decl_of ds s), (frames_of m s) as [fr|]; try reflexivity.
    destruct (py_index fr h) as [t|]; [|reflexivity].
    destruct (index_of g (names d)) as [i|]; [|reflexivity]. destruct (nth_error t i); reflexivity.
  - destruct (frames_of m s); reflexivity.
Qed.

Inductive wn : list op -> Prop :=
  | wn_nil : wn []
  | wn_mut o B : is_mut o = true -> wn B -> wn (o :: B)
  | wn_pair s B1 B2 : wn B1 -> wn B2 -> wn (OPush s :: B1 ++ OPop s :: B2).

Definition all_ok (rs : list out) : bool := forallb (fun r => negb (is_err r)) rs.

Definition runs (ds : decls) (m : mgr) (B : list op) (m' : mgr) : Prop :=
  exists rs, run ds m B = (m', rs) /\ all_ok rs = true.

Lemma runs_nil ds m m' : runs ds m [] m' <-> m' = m.
Proof. split; [intros (rs & [= <- _] & _); reflexivity|intros ->; now exists []]. Qed.
Lemma runs_cons ds m o B m' :
  runs ds m (o :: B) m' <-> is_err (snd (step ds m o)) = false /\ runs ds (fst (step ds m o)) B m'.
Proof.
  unfold runs. cbn. destruct (step ds m o) as [m1 r]. cbn. split.
  - intros (rs & Hr & Hok). destruct (run ds m1 B) as [m2 rs']. inversion Hr; subst.
    cbn in Hok. apply andb_prop in Hok as [He Hok]. apply negb_true_iff in He. eauto.
  - intros (He & rs & -> & Hok). exists (r :: rs). cbn. now rewrite He.
Qed.
Lemma runs_app ds A : forall m B m', runs ds m (A ++ B) m' -> exists m1, runs ds m A m1 /\ runs ds m1 B m'.
Proof.
  induction A as [|o A IH]; intros m B m'; cbn [app].
  - exists m; now rewrite runs_nil.
  - rewrite runs_cons. intros (He & H). apply IH in H as (m1 & HA & HB). exists m1. rewrite runs_cons. auto.
Qed.

Definition keeps_frames (ds : decls) (B : list op) : Prop :=
  forall m m', runs ds m B m' -> forall s, frames_of m' s = frames_of m s.

Lemma push_block ds s B m m1 : wf ds -> keeps_frames ds B -> runs ds m (OPush s :: B) m1 ->
  exists d fr t, decl_of ds s = Some d /\ frames_of m s = Some fr /\ get_all m (names d) = Some t /\
    frames_of m1 s = Some (fr ++ [t]) /\ forall g, g <> s -> ~ In g (names d) -> frames_of m1 g = frames_of m g.
Proof.
  intros Hwf HB H. apply runs_cons in H as [He H].
  destruct (push_resets ds Hwf s m _ _ (surjective_pairing _) He) as (d & fr & t & Hd & Hfr & Hga & Hs & _ & _ & Ho).
  exists d, fr, t. repeat split; auto.
  - now rewrite (HB _ _ H).
  - intros g Hgs Hg. rewrite (HB _ _ H). apply frames_of_eq. now apply Ho.
Qed.

(* `push s; B; pop s` puts every field registered with s back to its value before, and every stack back to its frames:
   s loses the frame it gained, a nested stack registered with s is restored like any field, the others are B's business *)
Lemma pair_restores ds s B m m' : wf ds -> keeps_frames ds B -> runs ds m (OPush s :: B ++ [OPop s]) m' ->
  exists d, decl_of ds s = Some d /\ (forall f, In f (names d) -> dget m' f = dget m f) /\
    forall g, frames_of m' g = frames_of m g.
Proof.
  intros Hwf HB H. apply (runs_app ds (OPush s :: B)) in H as (m2 & H & Hp).
  destruct (push_block ds s B m m2 Hwf HB H) as (d & fr & t & Hd & Hfr & Hga & Hf2 & Ho).
  exists d. split; [exact Hd|].
  apply runs_cons in Hp as [_ Hp]. apply runs_nil in Hp. subst m'. cbn. rewrite Hd, Hf2, do_pop_snoc. cbn.
  split; [intros f Hin; now apply (set_all_restores _ m)|].
  intros g. destruct (in_dec N.eq_dec g (names d)) as [Hin|Hnin].
  - apply frames_of_eq. now apply (set_all_restores _ m).
  - unfold frames_of at 1. rewrite dget_set_all_notin by assumption. fold (frames_of (dset m2 s (VStack fr)) g).
    destruct (N.eq_dec g s) as [->|Hne]; [now rewrite frames_of_dset_same|].
    rewrite <- (Ho g Hne Hnin). apply frames_of_eq. now apply dget_dset_other.
Qed.

(* LIFO discipline: a well-nested block that runs successfully leaves every stack attribute the frames it had *)
Lemma wn_keeps_frames ds : wf ds -> forall B, wn B -> keeps_frames ds B.
Proof.
  intros Hwf B Hwn. induction Hwn as [|o B Hm Hwn IH|s0 B1 B2 Hw1 IH1 Hw2 IH2]; intros m m' H s.
  - apply runs_nil in H. now subst.
  - apply runs_cons in H as [_ H]. rewrite (IH _ _ H). now apply step_mut_frames.
  - replace (OPush s0 :: B1 ++ OPop s0 :: B2) with ((OPush s0 :: B1 ++ [OPop s0]) ++ B2) in H
      by (cbn; now rewrite <- app_assoc).
    apply runs_app in H as (m3 & H1 & H2). rewrite (IH2 _ _ H2).
    now destruct (pair_restores ds s0 B1 m m3 Hwf IH1 H1) as (_ & _ & _ & Hf).
Qed.

Theorem frames_preserved ds : wf ds -> forall B, wn B -> forall m m' rs,
  run ds m B = (m', rs) -> all_ok rs = true -> forall s, frames_of m' s = frames_of m s.
Proof. intros Hwf B Hwn m m' rs Hr Hok. apply (wn_keeps_frames ds Hwf B Hwn). now exists rs. Qed.

Theorem push_pop_restores ds : wf ds -> forall s B, wn B -> forall m m' rs,
  run ds m (OPush s :: B ++ [OPop s]) = (m', rs) -> all_ok rs = true ->
  exists d, decl_of ds s = Some d /\
    (forall f, In f (names d) -> dget m' f = dget m f) /\ frames_of m' s = frames_of m s.
Proof.
  intros Hwf s B Hwn m m' rs Hr Hok.
  destruct (pair_restores ds s B m m' Hwf (wn_keeps_frames ds Hwf B Hwn)) as (d & Hd & Hf & Hfr); [now exists rs|].
  exists d. auto.
Qed.

Lemma py_index_last {A} (l : list A) x : py_index (l ++ [x]) (-1) = Some x.
Proof.
  unfold py_index. rewrite app_length. cbn [length].
  replace (Z.of_nat (length l + 1) + -1)%Z with (Z.of_nat (length l)) by lia. cbn.
  destruct (Z.leb_spec 0 (Z.of_nat (length l))), (Z.ltb_spec (Z.of_nat (length l)) (Z.of_nat (length l + 1))); try lia.
  cbn. now rewrite Nat2Z.id, nth_error_app2, Nat.sub_diag.
Qed.
Lemma py_index_deeper {A} (l : list A) x (k : nat) : (1 <= k)%nat ->
  py_index (l ++ [x]) (- Z.of_nat (S k)) = py_index l (- Z.of_nat k).
Proof.
  intros Hk. unfold py_index. rewrite app_length. cbn [length].
  destruct (Z.ltb_spec (- Z.of_nat (S k)) 0), (Z.ltb_spec (- Z.of_nat k) 0); try lia.
  replace (Z.of_nat (length l + 1) + - Z.of_nat (S k))%Z with (Z.of_nat (length l) + - Z.of_nat k)%Z by lia.
  set (i := (Z.of_nat (length l) + - Z.of_nat k)%Z).
  destruct (Z.leb_spec 0 i); [|reflexivity].
  destruct (Z.ltb_spec i (Z.of_nat (length l + 1))), (Z.ltb_spec i (Z.of_nat (length l))); try lia.
  apply nth_error_app1. lia.
Qed.

(* get_field at depth 1 (height -1) after `push s; B` returns the value the field had before the push *)
Theorem read_depth_1 ds : wf ds -> forall s B, wn B -> forall m m1 rs g,
  run ds m (OPush s :: B) = (m1, rs) -> all_ok rs = true ->
  forall d, decl_of ds s = Some d -> In g (names d) ->
  exists v, dget m g = Some v /\ step ds m1 (ORead s g (-1)) = (m1, OutVal v).
Proof.
  intros Hwf s B Hwn m m1 rs g Hr Hok d Hd Hin.
  destruct (push_block ds s B m m1 Hwf (wn_keeps_frames ds Hwf B Hwn)) as (d' & fr & t & Hd' & _ & Hga & Hf & _);
    [now exists rs|].
  rewrite Hd in Hd'. inversion Hd'; subst d'.
  destruct (get_all_index _ _ _ _ Hga Hin) as (i & v & Hi & Hv & Hg).
  exists v. split; auto. cbn. rewrite Hd, Hf, py_index_last, Hi, Hv. reflexivity.
Qed.

(* ... and reading one level deeper after a push is reading at the previous depth before it *)
Theorem read_deeper ds : wf ds -> forall s B, wn B -> forall m m1 rs g k,
  run ds m (OPush s :: B) = (m1, rs) -> all_ok rs = true -> (1 <= k)%nat ->
  snd (step ds m1 (ORead s g (- Z.of_nat (S k)))) = snd (step ds m (ORead s g (- Z.of_nat k))).
Proof.
  intros Hwf s B Hwn m m1 rs g k Hr Hok Hk.
  destruct (push_block ds s B m m1 Hwf (wn_keeps_frames ds Hwf B Hwn)) as (d & fr & t & Hd & Hfr & _ & Hf & _);
    [now exists rs|].
  cbn -[Z.of_nat]. rewrite Hd, Hf, Hfr. rewrite py_index_deeper by assumption.
  destruct (py_index fr (- Z.of_nat k)); cbn; auto.
  destruct (index_of g (names d)); cbn; auto. destruct (nth_error l n); auto.
Qed.

(* clear: after any number of unmatched pushes (each followed by a well-nested block) starting from an empty
   stack, clearing puts every registered field back to its value before the first push and empties the stack *)
Inductive pushes (s : field) : list op -> Prop :=
  | pushes_one B : wn B -> pushes s (OPush s :: B)
  | pushes_more P B : pushes s P -> wn B -> pushes s (P ++ OPush s :: B).

Lemma pushes_frames ds : wf ds -> forall s P, pushes s P -> forall m m' fr0,
  runs ds m P m' -> frames_of m s = Some fr0 ->
  exists d t rest, decl_of ds s = Some d /\ get_all m (names d) = Some t /\ frames_of m' s = Some (fr0 ++ t :: rest).
Proof.
  intros Hwf s P HP. induction HP as [B Hwn|P B HP IH Hwn]; intros m m' fr0 H Hfr.
  - destruct (push_block ds s B m m' Hwf (wn_keeps_frames ds Hwf B Hwn) H) as (d & fr & t & Hd & Hfr' & Hga & Hf & _).
    exists d, t, []. repeat split; auto. congruence.
  - apply runs_app in H as (ma & Ha & Hb).
    destruct (IH _ _ _ Ha Hfr) as (d & t & rest & Hd & Hga & Hfa).
    destruct (push_block ds s B ma m' Hwf (wn_keeps_frames ds Hwf B Hwn) Hb) as (_ & fr & t' & _ & Hfr' & _ & Hf & _).
    exists d, t, (rest ++ [t']). repeat split; auto.
    rewrite Hf. rewrite Hfa in Hfr'. inversion Hfr'; subst fr. now rewrite <- app_assoc.
Qed.

Theorem clear_restores ds : wf ds -> forall s P, pushes s P -> forall m m' rs,
  run ds m P = (m', rs) -> all_ok rs = true -> frames_of m s = Some [] ->
  exists d m'', decl_of ds s = Some d /\ step ds m' (OClear s) = (m'', Done) /\
    frames_of m'' s = Some [] /\ (forall f, In f (names d) -> dget m'' f = dget m f).
Proof.
  intros Hwf s P HP m m' rs Hr Hok Hfr.
  destruct (pushes_frames ds Hwf s P HP m m' [] (ex_intro _ rs (conj Hr Hok)) Hfr) as (d & t & rest & Hd & Hga & Hf).
  cbn [app] in Hf.
  exists d. eexists. split; [exact Hd|]. cbn. rewrite Hd, Hf. cbn.
  split; [reflexivity|]. split.
  - unfold frames_of. rewrite dget_set_all_notin by apply (Hwf _ _ Hd). rewrite dget_dset_same. reflexivity.
  - intros f Hin. eapply set_all_restores; eauto.
Qed.

Lemma mem_In x l : mem x l = true <-> In x l.
Proof. apply existsb_eqb_In. Qed.

Lemma direct_manual_keys items f i : In (f, i) (direct_manual items) -> In f (map fst (flat_map collect items)).
Proof.
  unfold direct_manual. intros H. apply in_flat_map in H as (it & Hit & Hin).
  destruct it as [g v [j|]|g its]; cbn in Hin; try destruct Hin as [Heq|[]]; try destruct Hin.
  inversion Heq; subst. apply in_map_iff. exists (f, v). split; auto.
  apply in_flat_map. exists (DField f v (Some i)). split; auto. now left.
Qed.

(* every attribute assigned inside a register_stack_state block is a registered name of that stack, and nothing else is *)
Theorem registers_every_field items f :
  In f (names (block_decl items)) <-> In f (map fst (flat_map collect items)).
Proof.
  unfold names, block_decl. cbn [auto manual]. rewrite in_app_iff, map_map. cbn [fst]. split.
  - intros [H|H].
    + apply in_map_iff in H as ((g, v) & <- & Hin). apply filter_In in Hin as [Hin _]. now apply (in_map fst) in Hin.
    + apply in_map_iff in H as ((g, i) & <- & Hin). eapply direct_manual_keys; eauto.
  - intros H. destruct (mem f (map fst (direct_manual items))) eqn:E; [right; now apply mem_In|left].
    apply in_map_iff in H as ((g, v) & <- & Hin). apply in_map_iff. exists (g, v). split; auto.
    apply filter_In. split; auto. cbn [fst] in *. now rewrite E.
Qed.

Fixpoint nodupb (l : list field) : bool :=
  match l with [] => true | x :: l' => negb (mem x l') && nodupb l' end.
Lemma nodupb_sound l : nodupb l = true -> NoDup l.
Proof.
  induction l as [|x l IH]; cbn; intros H; constructor; apply andb_prop in H as [H1 H2]; auto.
  intro Hin. apply mem_In in Hin. rewrite Hin in H1. discriminate.
Qed.
Definition wf_b (ds : decls) : bool :=
  forallb (fun sd => nodupb (names (snd sd)) && negb (mem (fst sd) (names (snd sd)))) ds.
Lemma decl_of_In ds s d : decl_of ds s = Some d -> In (s, d) ds.
Proof.
  induction ds as [|[g e] ds IH]; cbn; [discriminate|].
  destruct (N.eqb g s) eqn:E; intros H.
  - inversion H; subst. apply N.eqb_eq in E; subst. now left.
  - right; auto.
Qed.
Theorem wf_b_sound ds : wf_b ds = true -> wf ds.
Proof.
  unfold wf_b, wf. rewrite forallb_forall. intros H s d Hd. apply decl_of_In in Hd.
  specialize (H _ Hd). cbn in H. apply andb_prop in H as [H1 H2]. split.
  - now apply nodupb_sound.
  - intro Hin. apply mem_In in Hin. rewrite Hin in H2. discriminate.
Qed.
