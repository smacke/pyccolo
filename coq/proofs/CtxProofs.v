(* C06 / C07: every well-nested history restores the process state, and delivery follows the stack-of-booleans rule. *)
From Coq Require Import List NArith Bool Arith Lia.
Import ListNotations.
From PyccoloV Require Import model.Ctx.

Definition is_empty {A} (l : list A) : bool := match l with [] => true | _ => false end.

Lemma memb_app t l u : memb t (l ++ [u]) = memb t l || Nat.eqb t u.
Proof. unfold memb. rewrite existsb_app. cbn. now rewrite orb_false_r. Qed.
Lemma memb_in t l : memb t l = true -> In t l.
Proof. intros H. apply existsb_exists in H as (v & Hv & E). apply Nat.eqb_eq in E. now subst v. Qed.
Lemma memb_nonempty t l : memb t l = true -> is_empty l = false.
Proof. destruct l; cbn; auto; discriminate. Qed.
Lemma nonempty {A} (l : list A) : is_empty l = false -> l <> [].
Proof. now intros H ->. Qed.

(* what tracing_non_context does to _TRACER_STACK, and its cleanup undoes *)
Definition push (t : nat) (l : list nat) : list nat := if negb (memb t l) then l ++ [t] else l.
Lemma memb_push u t l : memb u (push t l) = memb u l || Nat.eqb u t.
Proof.
  unfold push. destruct (memb t l) eqn:E; [|apply memb_app].
  destruct (Nat.eqb_spec u t) as [->|]; [now rewrite E|now rewrite orb_false_r].
Qed.
Lemma push_nonempty t l : is_empty (push t l) = false.
Proof. apply (memb_nonempty t). rewrite memb_push, Nat.eqb_refl. apply orb_true_r. Qed.
Lemma pop_push t l : (if negb (memb t l) then removelast (push t l) else push t l) = l.
Proof. unfold push. destruct (negb (memb t l)); [apply removelast_last|reflexivity]. Qed.

Lemma upd_same f t x : upd f t x t = x.
Proof. unfold upd. now rewrite Nat.eqb_refl. Qed.
Lemma upd_other f t x u : u <> t -> upd f t x u = f u.
Proof. unfold upd. intros H. apply Nat.eqb_neq in H. now rewrite H. Qed.

(* what a context body must restore.  te, fte and lam_owner are left out: no cleanup puts them back (the flags go from absent to
   defined and stay so, TRACE_LAMBDA keeps the last tracer that entered until the stack empties); InvX says what holds of them.
   `existing` is compared only for tracers enabled at the start: enabling a tracer overwrites its saved trace function and the
   cleanup leaves it there, but only the cleanup of the context that enabled the tracer reads it. *)
Record core_eq (s s' : cst) : Prop := {
  ce_stack : stack s' = stack s;
  ce_n : ntr s' = ntr s;
  ce_en : forall t, enabled (tsts s' t) = enabled (tsts s t);
  ce_hard : forall t, hard (tsts s' t) = hard (tsts s t);
  ce_emit : emit_present s' = emit_present s;
  ce_guards : guards_live s' = guards_live s;
  ce_thunk : thunk_owner s' = thunk_owner s;
  ce_cur : cur_trace s' = cur_trace s;
  ce_patches : settrace_patches s' = settrace_patches s;
  ce_meta : meta_finders s' = meta_finders s;
  ce_existing : forall t, enabled (tsts s t) = true -> existing (tsts s' t) = existing (tsts s t) }.

Lemma core_eq_refl s : core_eq s s.
Proof. constructor; auto. Qed.
Lemma core_eq_trans a b c : core_eq a b -> core_eq b c -> core_eq a c.
Proof.
  intros H1 H2. destruct H1, H2. constructor; try congruence.
  intros t Ht. rewrite ce_existing1; auto. rewrite ce_en0; auto.
Qed.

(* the two flags, once defined, stay defined; every context defines them *)
Definition defd (s : cst) : Prop := fte s <> None /\ te s <> None.

(* the part of the invariant about fields a context body need not restore (the two flags, TRACE_LAMBDA) *)
Record InvX (s : cst) : Prop := {
  i_flags : forall t, enabled (tsts s t) = true -> fte s = Some true /\ te s = Some true;
  i_fte_true : fte s = Some true -> exists t, enabled (tsts s t) = true;
  i_te_true : te s = Some true -> stack s <> [];
  i_flags_def : stack s <> [] -> fte s <> None /\ te s <> None;
  i_lam : stack s = [] -> lam_owner s = None }.

Record Inv (s : cst) : Prop := {
  i_en_stack : forall t, enabled (tsts s t) = true -> memb t (stack s) = true;
  i_fire_en : forall t, memb t (stack s) = true -> hard (tsts s t) = false -> enabled (tsts s t) = true;
  i_hard : forall t, memb t (stack s) = false -> hard (tsts s t) = false;
  i_emit : emit_present s = negb (is_empty (stack s));
  i_guards : guards_live s = negb (is_empty (stack s));
  i_thunk : (thunk_owner s = None <-> stack s = []);
  i_x : InvX s }.

Lemma inv_core_eq s s' : core_eq s s' -> Inv s -> InvX s' -> Inv s'.
Proof.
  intros C I F. destruct C, I. constructor; auto; try intros t;
    rewrite ?ce_en0, ?ce_hard0, ?ce_emit0, ?ce_guards0, ?ce_thunk0, ce_stack0; auto.
Qed.

Lemma enter_enabled cfg t d s u :
  enabled (tsts (fst (enter cfg t d s)) u) = enabled (tsts s u) || Nat.eqb u t && c_enable (snd (enter cfg t d s)).
Proof.
  unfold enter, upd, get_t. cbn [fst snd tsts c_enable]. destruct (Nat.eqb_spec u t) as [->|]; [|now rewrite orb_false_r].
  now destruct d, (enabled (tsts s t)), (has_sys (cfg t)).
Qed.
Lemma enter_hard cfg t d s u : hard (tsts (fst (enter cfg t d s)) u) = if Nat.eqb u t then d else hard (tsts s u).
Proof.
  unfold enter, upd. cbn [fst tsts]. destruct (Nat.eqb u t); [|reflexivity].
  now destruct (negb d && _), (has_sys (cfg t)).
Qed.
Lemma enter_existing cfg t d s u : existing (tsts (fst (enter cfg t d s)) u) =
  if Nat.eqb u t && (c_enable (snd (enter cfg t d s)) && has_sys (cfg t)) then cur_trace s else existing (tsts s u).
Proof.
  unfold enter, upd, get_t. cbn [fst snd tsts c_enable]. destruct (Nat.eqb_spec u t) as [->|]; [|reflexivity].
  now destruct (negb d && _), (has_sys (cfg t)).
Qed.
Lemma enter_memb cfg t d s u : memb u (stack (fst (enter cfg t d s))) = memb u (stack s) || Nat.eqb u t.
Proof. apply memb_push. Qed.
Lemma enter_nonempty cfg t d s : is_empty (stack (fst (enter cfg t d s))) = false.
Proof. apply push_nonempty. Qed.

Lemma enter_defd cfg t d s : defd (fst (enter cfg t d s)).
Proof.
  unfold defd, enter. cbn. destruct (negb d && negb (enabled (get_t s t))); split; try discriminate;
    [destruct (fte s)|destruct (te s)]; discriminate.
Qed.

Lemma enter_inv cfg t d s : Inv s -> Inv (fst (enter cfg t d s)).
Proof.
  intros I. pose proof (nonempty _ (enter_nonempty cfg t d s)) as N. constructor.
  - intros u. rewrite enter_enabled, enter_memb. intros H. apply orb_true_iff in H as [H|H].
    + now rewrite (i_en_stack _ I u H).
    + apply andb_prop in H as [-> _]. apply orb_true_r.
  - intros u. rewrite enter_enabled, enter_hard, enter_memb. destruct (Nat.eqb_spec u t) as [->|].
    + intros _ ->. unfold enter, get_t. cbn. apply orb_negb_r.
    + rewrite !orb_false_r. apply I.
  - intros u. rewrite enter_hard, enter_memb. destruct (Nat.eqb u t).
    + rewrite orb_true_r. discriminate.
    + rewrite orb_false_r. apply I.
  - rewrite enter_nonempty. reflexivity.
  - rewrite enter_nonempty. unfold enter. cbn [fst guards_live]. rewrite (i_emit _ I), (i_guards _ I). now destruct (stack s).
  - split; [discriminate|contradiction].
  - constructor; [| |intros _; exact N|intros _; apply enter_defd|contradiction].
    + intros u. rewrite enter_enabled. unfold enter. cbn [fst snd fte te c_enable].
      destruct (negb d && _) eqn:W; [auto|]. rewrite andb_false_r, orb_false_r. intros H.
      now destruct (i_flags _ (i_x _ I) u H) as [-> ->].
    + unfold enter at 1. cbn [fst fte]. destruct (negb d && _) eqn:W.
      * intros _. exists t. rewrite enter_enabled, Nat.eqb_refl. unfold enter. cbn [snd c_enable]. rewrite W. apply orb_true_r.
      * intros H. destruct (i_fte_true _ (i_x _ I)) as [u Hu]; [now destruct (fte s)|].
        exists u. rewrite enter_enabled, Hu. reflexivity.
Qed.

Lemma exit_enabled cfg c s u :
  enabled (tsts (exit_ctx cfg c s) u) = enabled (tsts s u) && negb (c_enable c && Nat.eqb u (c_t c)).
Proof.
  unfold exit_ctx, upd, get_t. cbn [tsts]. destruct (Nat.eqb_spec u (c_t c)) as [->|]; [|now rewrite andb_false_r, andb_true_r].
  cbn [enabled]. destruct (c_enable c); [now rewrite andb_false_r|now rewrite andb_true_r].
Qed.
Lemma exit_hard cfg c s u : hard (tsts (exit_ctx cfg c s) u) = if Nat.eqb u (c_t c) then c_hard c else hard (tsts s u).
Proof. unfold exit_ctx, upd. cbn [tsts]. now destruct (Nat.eqb u (c_t c)). Qed.
Lemma exit_existing cfg c s u : existing (tsts (exit_ctx cfg c s) u) = existing (tsts s u).
Proof.
  unfold exit_ctx, upd, get_t. cbn [tsts]. now destruct (Nat.eqb_spec u (c_t c)) as [->|].
Qed.
Lemma exit_te cfg c s : te (exit_ctx cfg c s) = if is_empty (stack (exit_ctx cfg c s)) then Some false else te s.
Proof. unfold exit_ctx. cbn [te stack]. destruct (if c_push c then _ else _); [reflexivity|]. now rewrite andb_false_r. Qed.

Lemma exit_defd cfg c s : defd s -> defd (exit_ctx cfg c s).
Proof.
  intros [H1 H2]. split; [|rewrite exit_te; now destruct (is_empty _)].
  unfold exit_ctx. cbn [fte]. now destruct (c_enable c).
Qed.

Lemma exit_invx cfg c s : Inv s ->
  (forall u, enabled (tsts (exit_ctx cfg c s) u) = true -> memb u (stack (exit_ctx cfg c s)) = true) ->
  InvX (exit_ctx cfg c s).
Proof.
  intros I M.
  assert (F : fte (exit_ctx cfg c s) = if c_enable c
    then Some (existsb (fun u => negb (Nat.eqb u (c_t c)) && enabled (tsts s u)) (stack (exit_ctx cfg c s))) else fte s) by reflexivity.
  constructor.
  - intros u Hu. pose proof (M u Hu) as Hm. rewrite exit_te, (memb_nonempty _ _ Hm), F.
    rewrite exit_enabled in Hu. apply andb_prop in Hu as [Hu Hn].
    destruct (i_flags _ (i_x _ I) u Hu) as [Hf Ht]. split; [|exact Ht].
    destruct (c_enable c); [|exact Hf]. f_equal. apply existsb_exists. exists u. split; [now apply memb_in|]. cbn [andb] in Hn. now rewrite Hu, Hn.
  - rewrite F. destruct (c_enable c) eqn:E; intros H.
    + injection H as H. apply existsb_exists in H as (u & _ & H). exists u. now rewrite exit_enabled, E, andb_comm.
    + destruct (i_fte_true _ (i_x _ I) H) as [u Hu]. exists u. now rewrite exit_enabled, Hu, E.
  - rewrite exit_te. intros H E. rewrite E in H. discriminate.
  - intros N. apply exit_defd, (i_flags_def _ (i_x _ I)). intros E. apply N. unfold exit_ctx. cbn [stack]. rewrite E. now destruct (c_push c).
  - intros E. unfold exit_ctx in *. cbn [stack lam_owner] in *. now rewrite E.
Qed.

Lemma exit_core cfg t d s s2 : Inv s -> core_eq (fst (enter cfg t d s)) s2 ->
  core_eq s (exit_ctx cfg (snd (enter cfg t d s)) s2).
Proof.
  intros I C.
  assert (S : (if c_push (snd (enter cfg t d s)) then removelast (stack s2) else stack s2) = stack s)
    by (rewrite (ce_stack _ _ C); apply pop_push).
  constructor.
  - exact S.
  - exact (ce_n _ _ C).
  - intros u. rewrite exit_enabled, (ce_en _ _ C), enter_enabled. simpl (c_t _). simpl (c_enable _). unfold get_t.
    destruct (Nat.eqb_spec u t) as [->|]; [now destruct d, (enabled (tsts s t))|now rewrite orb_false_r, andb_false_r, andb_true_r].
  - intros u. rewrite exit_hard, (ce_hard _ _ C), enter_hard. simpl (c_t _). now destruct (Nat.eqb_spec u t) as [->|].
  - unfold exit_ctx. cbn [emit_present]. rewrite S, (ce_emit _ _ C), (i_emit _ I). now destruct (stack s).
  - unfold exit_ctx. cbn [guards_live]. rewrite S, (ce_guards _ _ C). cbn. rewrite (i_emit _ I), (i_guards _ I). now destruct (stack s).
  - unfold exit_ctx. cbn [thunk_owner]. rewrite S, (ce_thunk _ _ C). cbn.
    destruct (stack s) eqn:Es; [symmetry; now apply (i_thunk _ I)|].
    destruct (thunk_owner s) eqn:Et; [reflexivity|]. apply (i_thunk _ I) in Et. rewrite Es in Et. discriminate.
  - unfold exit_ctx. cbn [cur_trace]. rewrite (ce_cur _ _ C). simpl (c_t _). unfold get_t.
    change (cur_trace (fst (enter cfg t d s)))
      with (if c_enable (snd (enter cfg t d s)) && has_sys (cfg t) then TfComposed t (cur_trace s) else cur_trace s).
    destruct (c_enable _ && has_sys (cfg t)) eqn:E; [|reflexivity]. cbn [tracefn_eqb negb].
    rewrite (ce_existing _ _ C), enter_existing, Nat.eqb_refl; [now rewrite E|].
    apply andb_prop in E as [E _]. now rewrite enter_enabled, Nat.eqb_refl, E, orb_true_r.
  - unfold exit_ctx. cbn [settrace_patches]. rewrite (ce_patches _ _ C). cbn. now destruct (has_sys (cfg t) && _).
  - unfold exit_ctx. cbn [meta_finders]. rewrite (ce_meta _ _ C). cbn. now destruct (patch_meta (cfg t) && _).
  - intros u Hu. rewrite exit_existing, (ce_existing _ _ C), enter_existing; [|now rewrite enter_enabled, Hu].
    destruct (Nat.eqb_spec u t) as [->|]; [|reflexivity]. simpl (c_enable _). unfold get_t. now rewrite Hu, andb_false_r.
Qed.

Definition Rel (s : cst) (sp : spec) : Prop :=
  length sp = ntr s /\
  forall t, t < ntr s ->
    (memb t (stack s) = true <-> nth t sp [] <> []) /\
    (memb t (stack s) = true -> hard (tsts s t) = negb (hd true (nth t sp []))).

Lemma rel_core_eq s s' sp : core_eq s s' -> Rel s sp -> Rel s' sp.
Proof.
  intros C [Hl H]. destruct C. split; [congruence|]. intros t Ht. rewrite ce_n0 in Ht.
  rewrite ce_stack0, ce_hard0. auto.
Qed.

Lemma rel_tracer s sp t : Inv s -> Rel s sp -> t < ntr s ->
  memb t (stack s) = negb (is_empty (nth t sp [])) /\ hard (tsts s t) = negb (hd true (nth t sp [])).
Proof.
  intros I [_ H] Ht. destruct (H t Ht) as [[H1 H2] H3]. destruct (memb t (stack s)) eqn:Em.
  - split; [|now apply H3]. destruct (nth t sp []); [now destruct H1|reflexivity].
  - rewrite (i_hard _ I t Em). destruct (nth t sp []); [now split|]. discriminate H2. discriminate.
Qed.

Lemma length_set_nth {A} (l : list A) i x : length (set_nth l i x) = length l.
Proof. revert i; induction l as [|y l IH]; intros [|i]; cbn; auto. Qed.
Lemma nth_set_nth_same {A} (l : list A) i x d : i < length l -> nth i (set_nth l i x) d = x.
Proof. revert i; induction l as [|y l IH]; intros [|i] H; cbn in *; auto; try lia; try (apply IH; lia). Qed.
Lemma nth_set_nth_other {A} (l : list A) i j x d : i <> j -> nth j (set_nth l i x) d = nth j l d.
Proof. revert i j; induction l as [|y l IH]; intros [|i] [|j] H; cbn; auto; try congruence; try (apply IH; lia). Qed.

Lemma enter_rel cfg t d s sp : Rel s sp -> t < ntr s -> Rel (fst (enter cfg t d s)) (spec_push sp t (negb d)).
Proof.
  intros [Hl H] Ht. unfold spec_push. split; [now rewrite length_set_nth|].
  intros u Hu. rewrite enter_memb, enter_hard. destruct (Nat.eqb_spec u t) as [->|N].
  - rewrite nth_set_nth_same, orb_true_r by lia. cbn. rewrite negb_involutive. repeat split; discriminate.
  - rewrite nth_set_nth_other, orb_false_r by auto. now apply H.
Qed.

Lemma fires_spec s sp t : Inv s -> Rel s sp -> t < ntr s -> fires s t = spec_fires sp t.
Proof.
  intros I R Ht. destruct (rel_tracer s sp t I R Ht) as [Hm Hh].
  unfold fires, spec_fires, get_t. rewrite Hm, Hh. now destruct (nth t sp []) as [|[] ?].
Qed.

Lemma map_fires_spec s sp : Inv s -> Rel s sp ->
  map (fires s) (seq 0 (ntr s)) = map (spec_fires sp) (seq 0 (length sp)).
Proof.
  intros I R. rewrite (proj1 R). apply map_ext_in. intros t Ht. apply in_seq in Ht. now apply fires_spec.
Qed.

(* a tracer that fires implies the site reaches its emit call *)
Lemma fire_implies_reach s t : Inv s -> fires s t = true ->
  emit_present s = true /\ fte s = Some true /\ te s = Some true.
Proof.
  intros I Hf. unfold fires in Hf. apply andb_prop in Hf as [Hm Hh]. apply negb_true_iff in Hh.
  pose proof (i_fire_en _ I t Hm Hh) as He. destruct (i_flags _ (i_x _ I) t He) as [-> ->].
  rewrite (i_emit _ I), (memb_nonempty _ _ Hm). auto.
Qed.

Lemma map_all_false {A} (f : A -> bool) l : existsb f l = false -> map f l = repeat false (length l).
Proof. induction l as [|x l IH]; cbn; [reflexivity|]. intros H. apply orb_false_iff in H as [-> H]. now rewrite IH. Qed.

Lemma site_delivery s sp k : Inv s -> Rel s sp -> k <> KSys ->
  delivered_of (ntr s) (run_site s k) = map (spec_fires sp) (seq 0 (length sp)).
Proof.
  intros I R Hk. rewrite <- (map_fires_spec s sp I R). destruct (existsb (fires s) (seq 0 (ntr s))) eqn:E.
  - apply existsb_exists in E as (t & _ & Ht). destruct (fire_implies_reach s t I Ht) as (He & Hf & Hte).
    unfold run_site. rewrite He, Hf, Hte. now destruct k.
  - (* nobody fires: the delivered list and the list that stands for no delivery are the same *)
    apply map_all_false in E. rewrite seq_length in E. rewrite E. unfold run_site.
    change (fun t => fires s t) with (fires s). rewrite E.
    destruct k; [| | | |contradiction]; destruct (fte s) as [[]|], (te s) as [[]|], (emit_present s); reflexivity.
Qed.

Lemma item_ind' (P : item -> Prop) :
  (forall t d b, Forall P b -> P (ICtx t d b)) -> (forall t b, Forall P b -> P (IExec t b)) ->
  (forall k, P (ISite k)) -> P IRaise -> (forall b, Forall P b -> P (ITry b)) -> forall i, P i.
Proof.
  intros HC HE HS HR HT. fix IH 1. intros [t d b|t b|k| |b]; [apply HC|apply HE|apply HS|apply HR|apply HT];
    induction b; constructor; auto.
Qed.

Definition esc {A B} (o : bool * A * B) : bool := fst (fst o).
Definition st {A B} (o : bool * A * B) : A := snd (fst o).

Lemma run_items_cons cfg i l s : run_items cfg (i :: l) s =
  let o := run_item cfg i s in
  if esc o then o else let o' := run_items cfg l (st o) in (esc o', st o', snd o ++ snd o').
Proof.
  unfold run_items. cbn [items_of]. destruct (run_item cfg i s) as [[[] s1] lg]; [reflexivity|].
  cbn. now destruct (items_of _ l s1) as [[? ?] ?].
Qed.
Lemma run_ctx cfg t d b s : run_item cfg (ICtx t d b) s =
  let e := enter cfg t d s in let o := run_items cfg b (fst e) in (esc o, exit_ctx cfg (snd e) (st o), snd o).
Proof. cbn [run_item]. fold (run_items cfg). destruct (enter cfg t d s) as [s1 c]. cbn [fst snd]. now destruct (run_items cfg b s1) as [[? ?] ?]. Qed.
Lemma run_exec cfg t b s : run_item cfg (IExec t b) s = run_item cfg (ICtx t (hard (tsts s t)) b) s.
Proof. reflexivity. Qed.
Lemma run_try cfg b s : run_item cfg (ITry b) s = let o := run_items cfg b s in (false, st o, snd o).
Proof. cbn [run_item]. fold (run_items cfg). now destruct (run_items cfg b s) as [[? ?] ?]. Qed.

Lemma spec_items_cons i l sp : spec_items (i :: l) sp =
  let p := spec_item i sp in if fst p then p else let p' := spec_items l sp in (fst p', snd p ++ snd p').
Proof.
  unfold spec_items. cbn [spec_items_of]. destruct (spec_item i sp) as [[] lg]; [reflexivity|].
  cbn. now destruct (spec_items_of _ l sp).
Qed.
Lemma spec_try b sp : spec_item (ITry b) sp = (false, snd (spec_items b sp)).
Proof. cbn [spec_item]. fold spec_items. now destruct (spec_items b sp). Qed.

Fixpoint wf_item (n : nat) (i : item) : Prop :=
  match i with
  | ICtx t _ body | IExec t body => t < n /\ (fix go (l : list item) : Prop := match l with [] => True | x :: l' => wf_item n x /\ go l' end) body
  | ITry body => (fix go (l : list item) : Prop := match l with [] => True | x :: l' => wf_item n x /\ go l' end) body
  | ISite k => k <> KSys
  | IRaise => True
  end.
Fixpoint wf_items (n : nat) (l : list item) : Prop := match l with [] => True | x :: l' => wf_item n x /\ wf_items n l' end.

Lemma wf_items_go n body :
  (fix go (l : list item) : Prop := match l with [] => True | x :: l' => wf_item n x /\ go l' end) body = wf_items n body.
Proof. induction body as [|x l IH]; cbn; auto. now rewrite IH. Qed.

Definition is_ksys (k : kind) : bool := match k with KSys => true | _ => false end.
Definition view_log (n : nat) (lg : list (kind * site_result)) : list (kind * list bool) :=
  map (fun e => (fst e, delivered_of n (snd e))) (filter (fun e => negb (is_ksys (fst e))) lg).

Lemma view_log_app n a b : view_log n (a ++ b) = view_log n a ++ view_log n b.
Proof. unfold view_log. now rewrite filter_app, map_app. Qed.

Record agrees (s : cst) (o : bool * cst * list (kind * site_result)) (p : bool * list (kind * list bool)) : Prop := {
  ag_esc : esc o = fst p;
  ag_log : view_log (ntr s) (snd o) = snd p;
  ag_core : core_eq s (st o);
  ag_inv : Inv (st o) }.

Definition good_item (cfg : nat -> tcfg) (i : item) : Prop := forall s sp,
  Inv s -> Rel s sp -> wf_item (ntr s) i -> agrees s (run_item cfg i s) (spec_item i sp).
Definition good_items (cfg : nat -> tcfg) (l : list item) : Prop := forall s sp,
  Inv s -> Rel s sp -> wf_items (ntr s) l -> agrees s (run_items cfg l s) (spec_items l sp).

Lemma good_items_of cfg l : Forall (good_item cfg) l -> good_items cfg l.
Proof.
  induction 1 as [|i l Hi _ IH]; intros s sp I R W.
  - constructor; auto using core_eq_refl.
  - destruct W as [W1 W2]. specialize (Hi s sp I R W1).
    rewrite run_items_cons, spec_items_cons. cbn zeta. rewrite <- (ag_esc _ _ _ Hi).
    destruct (esc (run_item cfg i s)) eqn:E; [exact Hi|]. destruct Hi as [_ Hl C I1].
    rewrite <- (ce_n _ _ C) in W2. destruct (IH _ sp I1 (rel_core_eq _ _ _ C R) W2) as [Hr' Hl' C' I2].
    constructor; cbn [esc st fst snd]; auto.
    + rewrite view_log_app, Hl, <- (ce_n _ _ C), Hl'. reflexivity.
    + eapply core_eq_trans; eauto.
Qed.

Lemma ctx_case cfg t d body s sp : good_items cfg body -> Inv s -> Rel s sp -> t < ntr s -> wf_items (ntr s) body ->
  agrees s (run_item cfg (ICtx t d body) s) (spec_items body (spec_push sp t (negb d))).
Proof.
  intros G I R Ht W. rewrite run_ctx.
  destruct (G _ _ (enter_inv cfg t d s I) (enter_rel cfg t d s sp R Ht) W) as [Hr Hl C I2].
  pose proof (exit_core cfg t d s _ I C) as C3. constructor; [exact Hr|exact Hl|exact C3|].
  apply (inv_core_eq s _ C3 I), exit_invx; [exact I2|].
  intros u. rewrite (ce_en _ _ C3), (ce_stack _ _ C3). apply I.
Qed.

Theorem all_items_good cfg : forall l, good_items cfg l.
Proof.
  intros l. apply good_items_of, Forall_forall. intros i _.
  induction i as [t d body IH|t body IH|k| |body IH] using item_ind'; intros s sp I R W;
    try (apply good_items_of in IH; cbn in W; rewrite wf_items_go in W).
  - apply ctx_case; tauto.
  - (* t.exec(code) is the context with disabled = t's hard flag, which the reference has as the top of t's stack *)
    rewrite run_exec. change (spec_item (IExec t body) sp) with (spec_items body (spec_push sp t (hd true (nth t sp [])))).
    destruct (rel_tracer s sp t I R (proj1 W)) as [_ Hh]. rewrite <- (negb_involutive (hd _ _)), <- Hh. apply ctx_case; tauto.
  - constructor; auto using core_eq_refl. cbn [run_item spec_item snd]. rewrite <- (site_delivery s sp k I R W). now destruct k.
  - constructor; auto using core_eq_refl.
  - rewrite run_try, spec_try. destruct (IH s sp I R W) as [_ Hl C I2]. now constructor.
Qed.

Lemma init_inv n pre : Inv (init_cst n pre).
Proof.
  constructor; cbn; auto; try discriminate; [split; auto|].
  constructor; cbn; auto; try discriminate; try (intros H; contradiction).
Qed.

Lemma quiescent_rel s : stack s = [] -> Rel s (init_spec (ntr s)).
Proof.
  intros He. split; [apply repeat_length|]. intros t Ht. unfold init_spec. rewrite nth_repeat, He.
  split; [split; [discriminate|congruence]|discriminate].
Qed.
Lemma init_rel n pre : Rel (init_cst n pre) (init_spec n).
Proof. now apply (quiescent_rel (init_cst n pre)). Qed.

(* C06, from any state satisfying the invariant *)
Theorem delivery_general cfg items s sp : Inv s -> Rel s sp -> wf_items (ntr s) items ->
  let '(r, s', lg) := run_items cfg items s in
  let '(r2, lg2) := spec_items items sp in
  r = r2 /\ view_log (ntr s) lg = lg2.
Proof.
  intros I R W. destruct (all_items_good cfg items s sp I R W) as [H1 H2 _ _].
  destruct (run_items cfg items s) as [[r s'] lg]. destruct (spec_items items sp) as [r2 lg2]. auto.
Qed.

(* C07: any history from a state with no active context puts every process-global field back *)
Theorem restore_general cfg items s : Inv s -> stack s = [] -> wf_items (ntr s) items ->
  let s' := snd (fst (run_items cfg items s)) in
  core_eq s s' /\ Inv s' /\ stack s' = [] /\ emit_present s' = false /\ guards_live s' = false /\
  thunk_owner s' = None /\ lam_owner s' = None.
Proof.
  intros I He W s'. destruct (all_items_good cfg items s _ I (quiescent_rel s He) W) as [_ _ C I'].
  change (st (run_items cfg items s)) with s' in C, I'. pose proof (ce_stack _ _ C) as Hs. rewrite He in Hs.
  split; [exact C|]. split; [exact I'|]. rewrite (i_emit _ I'), (i_guards _ I'), Hs.
  repeat split; [now apply (i_thunk _ I')|now apply (i_lam _ (i_x _ I'))].
Qed.

Fixpoint isize (i : item) : nat :=
  match i with
  | ICtx _ _ b | IExec _ b | ITry b => S ((fix sl (l : list item) := match l with [] => 0 | x :: l' => isize x + sl l' end) b)
  | _ => 1
  end.
Definition lsize (l : list item) : nat := (fix sl (l : list item) := match l with [] => 0 | x :: l' => isize x + sl l' end) l.
Lemma lsize_in l x : In x l -> isize x <= lsize l.
Proof. induction l as [|y ys IH]; intros H; [destruct H|]. destruct H as [->|H]; cbn; [lia|]. specialize (IH H). unfold lsize in IH. lia. Qed.

Definition keeps_defd (run : cst -> bool * cst * list (kind * site_result)) : Prop := forall s, defd s -> defd (st (run s)).
Lemma defd_items_of cfg l : Forall (fun i => keeps_defd (run_item cfg i)) l -> keeps_defd (run_items cfg l).
Proof.
  induction 1 as [|i l Hi _ IH]; intros s Hs; [exact Hs|].
  rewrite run_items_cons. cbn zeta. destruct (esc (run_item cfg i s)); [|apply IH]; now apply Hi.
Qed.
Lemma defd_item cfg i : keeps_defd (run_item cfg i).
Proof.
  induction i as [t d b IH|t b IH|k| |b IH] using item_ind'; intros s Hs; try apply defd_items_of in IH.
  - rewrite run_ctx. apply exit_defd, IH, enter_defd.
  - rewrite run_exec, run_ctx. apply exit_defd, IH, enter_defd.
  - exact Hs.
  - exact Hs.
  - rewrite run_try. now apply IH.
Qed.
Lemma defd_items cfg : forall l s, defd s -> defd (snd (fst (run_items cfg l s))).
Proof. intros l. apply defd_items_of, Forall_forall. intros i _. apply defd_item. Qed.

Lemma ctx_defines cfg t d body s : defd (snd (fst (run_item cfg (ICtx t d body) s))).
Proof. rewrite run_ctx. apply exit_defd, defd_items, enter_defd. Qed.

(* code compiled while tracing, run when no context is active any more: every guarded site takes its pristine branch *)
Theorem after_sites_plain s k : Inv s -> stack s = [] -> defd s -> k <> KTop -> run_site s k = SPlain.
Proof.
  intros I He [Hf Ht] Hk. unfold run_site. destruct (fte s) as [[]|] eqn:Ef; [|clear Hf|contradiction].
  - destruct (i_fte_true _ (i_x _ I) Ef) as [t E]. apply (i_en_stack _ I) in E. rewrite He in E. discriminate.
  - destruct (te s) as [[]|] eqn:Et; [|now destruct k|contradiction]. now destruct (i_te_true _ (i_x _ I) Et).
Qed.
