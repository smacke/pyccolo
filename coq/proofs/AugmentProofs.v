(* C14: fix_positions recovers the final columns whenever sorting by recorded column gives the true left-to-right order;
   replace_tokens copies everything that is not an occurrence from the source. *)
From Coq Require Import List ZArith NArith Bool Arith Lia.
Import ListNotations.
From PyccoloV Require Import model.Augment.
Local Open Scope Z_scope.

Definition sum_if (offs : nat -> Z) (P : nat -> bool) (l : list occ) : Z :=
  fold_left (fun (acc : Z) (o : occ) => if P (snd o) then acc + offs (snd o) else acc) l 0.

Lemma fold_acc (offs : nat -> Z) (P : nat -> bool) l : forall a,
  fold_left (fun (acc : Z) (o : occ) => if P (snd o) then acc + offs (snd o) else acc) l a = a + sum_if offs P l.
Proof.
  unfold sum_if. induction l as [|o l IH]; intros a; cbn [fold_left]; [lia|].
  rewrite IH. rewrite (IH (if P (snd o) then 0 + offs (snd o) else 0)). destruct (P (snd o)); lia.
Qed.
Lemma sum_if_snoc (offs : nat -> Z) (P : nat -> bool) l o : sum_if offs P (l ++ [o]) = sum_if offs P l + (if P (snd o) then offs (snd o) else 0).
Proof. unfold sum_if. rewrite fold_left_app. cbn. destruct (P (snd o)); lia. Qed.

Lemma sum_if_split offs k l :
  sum_if offs (fun j => Nat.leb k j) l = sum_if offs (fun j => Nat.ltb k j) l + sum_if offs (fun j => Nat.eqb j k) l.
Proof.
  induction l as [|o l IHl] using rev_ind; [reflexivity|].
  rewrite !sum_if_snoc, IHl.
  destruct (Nat.leb_spec k (snd o)), (Nat.ltb_spec k (snd o)), (Nat.eqb_spec (snd o) k); lia.
Qed.

(* the two Counters of fix_positions after the occurrences in `left` have been processed *)
Definition inv (offs : nat -> Z) (left : list occ) (total own : counter) : Prop :=
  forall k, total k = sum_if offs (fun j => Nat.leb k j) left /\ own k = sum_if offs (fun j => Nat.eqb j k) left.

(* the correction `total' k - own' k` is the sum of the offsets of the later-applied specs (j > k) standing to the left, which is
   what recorded_of added to the final column: sum_if_split *)
Lemma fix_recorded offs : forall layout left total own, inv offs left total own ->
  fix_sorted offs total own (recorded_of offs left layout) = layout.
Proof.
  induction layout as [|[f k] layout IH]; intros left total own Hinv; cbn [recorded_of fix_sorted]; auto.
  f_equal.
  - f_equal. unfold cadd_upto, cadd_at. rewrite Nat.leb_refl, Nat.eqb_refl.
    destruct (Hinv k) as [Ht Ho]. rewrite Ht, Ho.
    change (fold_left (fun (acc : Z) (o : occ) => if (k <? snd o)%nat then acc + offs (snd o) else acc) left 0)
      with (sum_if offs (fun j => Nat.ltb k j) left).
    pose proof (sum_if_split offs k left) as Hsplit.
    lia.
  - apply IH. intros j. destruct (Hinv j) as [Ht Ho]. rewrite !sum_if_snoc. cbn [snd]. unfold cadd_upto, cadd_at. split.
    + rewrite Ht. destruct (Nat.leb j k); lia.
    + rewrite Ho. rewrite (Nat.eqb_sym k j). destruct (Nat.eqb j k); lia.
Qed.

(* for every number of specs with arbitrary length changes, every number of occurrences on a line: if sorting the
   recorded columns does not reorder them, every corrected column is the occurrence's column in the final text *)
Theorem fix_line_correct offs layout :
  sort_occs (recorded_of offs [] layout) = Some (recorded_of offs [] layout) ->
  fix_line offs (recorded_of offs [] layout) = Some layout.
Proof.
  intros Hs. unfold fix_line. rewrite Hs. cbn. f_equal. apply fix_recorded. intros k. split; reflexivity.
Qed.

(* the side condition is needed.  Specs in application order: 0 shrinks by 1, 2 shrinks by 3.  Final layout of one line:
   an occurrence of spec 2 at column 0, of spec 0 at column 5, of spec 2 at column 6.  The column recorded for the
   spec-0 occurrence (taken when the first spec-2 token was still 3 longer) is 8 > 6: the sort puts it after the last
   occurrence, and its corrected column comes out as 2 instead of 5: the node at column 5 is not marked. *)
Theorem fix_line_refuted :
  exists offs layout,
    In (5, 0%nat) layout /\
    match fix_line offs (recorded_of offs [] layout) with
    | Some l => ~ In (5, 0%nat) l
    | None => False
    end.
Proof.
  exists (fun k => match k with 0%nat => 1 | _ => 3 end), [(0, 2%nat); (5, 0%nat); (6, 2%nat)].
  split; [right; left; reflexivity|]. vm_compute. intros [H|[H|[H|[]]]]; discriminate H.
Qed.

(* and two occurrences of different specs recorded at the same column make the sort compare two specs (TypeError) *)
Theorem fix_line_tie_refuted :
  exists offs layout, fix_line offs (recorded_of offs [] layout) = None.
Proof. exists (fun k => match k with 0%nat => 1 | _ => 3 end), [(0, 2%nat); (2, 0%nat); (5, 2%nat)]. vm_compute. reflexivity. Qed.

Lemma str_eqb_eq a : forall b, str_eqb a b = true -> a = b.
Proof.
  induction a as [|x a IH]; intros [|y b] H; cbn in H; try discriminate; [reflexivity|].
  apply andb_prop in H as [H1 H2]. apply N.eqb_eq in H1. subst y. f_equal. now apply IH.
Qed.

Lemma finish_text tok c st out s :
  transformed (finish tok tok c st out s) ++ matchbuf (finish tok tok c st out s) = out ++ c.
Proof.
  unfold finish. destruct (str_eqb c tok) eqn:E; [|reflexivity].
  apply str_eqb_eq in E as <-. destruct (Z.eqb (fst st) (offset_row s)); apply app_nil_r.
Qed.
Lemma step_text tok s cur :
  transformed (step tok tok s cur) ++ matchbuf (step tok tok s cur) = (transformed s ++ matchbuf s) ++ t_gap cur ++ t_text cur.
Proof.
  unfold step.
  destruct (negb (t_opaque cur) && nonempty (matchbuf s) && prefix_of (matchbuf s ++ t_gap cur ++ t_text cur) tok);
    [|destruct (negb (t_opaque cur) && prefix_of (t_text cur) tok && nonempty (t_text cur))];
    rewrite ?finish_text; cbn [transformed matchbuf]; now rewrite ?app_nil_r, <- !app_assoc.
Qed.
(* replacing the token by itself gives the source back, whatever the tokens are: nothing between or inside tokens is lost,
   duplicated or re-spaced, with or without occurrences.  (A text rebuilt from token strings and blanks loses tabs, form feeds,
   backslash continuations and the `{{` of f-strings even in a source without occurrences: repaired by 4b37ead.) *)
Theorem replace_self_identity tok toks : fst (replace_tokens tok tok toks) = source_of toks.
Proof.
  unfold replace_tokens. cbn [fst].
  assert (G : forall l s, transformed (fold_left (step tok tok) l s) ++ matchbuf (fold_left (step tok tok) l s) =
                          (transformed s ++ matchbuf s) ++ source_of l).
  { induction l as [|t l IH]; intros s; cbn [fold_left source_of flat_map]; [now rewrite app_nil_r|].
    rewrite IH, step_text. unfold source_of. now rewrite <- !app_assoc. }
  rewrite G. reflexivity.
Qed.

Lemma step_copies tok repl s t : matchbuf s = [] -> t_opaque t = true \/ t_text t = [] \/ prefix_of (t_text t) tok = false ->
  let s' := step tok repl s t in
  matchbuf s' = [] /\ positions s' = positions s /\ transformed s' = transformed s ++ t_gap t ++ t_text t.
Proof.
  intros Hm Ht. unfold step. rewrite Hm. cbn [nonempty app]. rewrite andb_false_r. cbn [andb].
  assert (E : negb (t_opaque t) && prefix_of (t_text t) tok && nonempty (t_text t) = false)
    by (destruct Ht as [-> | [-> | ->]]; cbn [negb nonempty andb]; now rewrite ?andb_false_r).
  rewrite E. repeat split. cbn [transformed]. now rewrite <- app_assoc.
Qed.

(* a source in which no code token starts an occurrence comes back unchanged, for any replacement, and nothing is recorded *)
Theorem replace_no_occurrence tok repl toks :
  (forall t, In t toks -> t_opaque t = true \/ t_text t = [] \/ prefix_of (t_text t) tok = false) ->
  replace_tokens tok repl toks = (source_of toks, []).
Proof.
  intros H. unfold replace_tokens.
  assert (G : forall l s, (forall t, In t l -> t_opaque t = true \/ t_text t = [] \/ prefix_of (t_text t) tok = false) ->
              matchbuf s = [] ->
              let s' := fold_left (step tok repl) l s in
              matchbuf s' = [] /\ positions s' = positions s /\ transformed s' = transformed s ++ source_of l).
  { induction l as [|t l IH]; intros s Hl Hm; cbn [fold_left source_of flat_map]; [now rewrite app_nil_r|].
    destruct (step_copies tok repl s t Hm (Hl t (or_introl eq_refl))) as (A & B & C).
    destruct (IH (step tok repl s t) (fun t' Ht' => Hl t' (or_intror Ht')) A) as (A' & B' & C').
    rewrite A', B', B, C', C. now rewrite <- !app_assoc. }
  set (s0 := Build_rstate _ _ _ _ _ _).
  destruct (G toks s0 H eq_refl) as (A & B & C). rewrite A, B, C. now rewrite app_nil_r.
Qed.
