(* Proofs about model/FragOv.v: handlers that override - the instrumented term against the override reference *)
From Coq Require Import List PeanoNat NArith Bool.
Import ListNotations.
From PyccoloV Require Import gen.Events model.Tree model.RwFrag model.FragSem proofs.FragLog proofs.FragSemProofs model.FragOv.
Local Open Scope N_scope.

Section OvProofs.
Variable binop : N -> val -> val -> res val.
Variable cmpop : N -> val -> val -> res bool.
Variable unop : N -> val -> res val.
Variable truth : val -> bool.
Variable cval : scalar -> val.
Variable is_and : N -> bool.
Variable hv : event -> N -> val -> option val.
Variable hd : event -> N -> option val.
Variable c : rcfg.

Notation eval_o := (eval_o binop cmpop unop truth cval is_and hv hd).
Notation ref_o := (ref_o binop cmpop unop truth cval is_and hv hd c).
Notation ovc := (ovc hv c).
Notation ovc_res := (ovc_res hv c).
Notation odc := (odc hd c).
Notation fl := (filter_log c).

Lemma ovc_res_sub e n q : ovc_res e n q = if sub c e then ov_res hv e n q else q.
Proof. destruct q; cbn; unfold FragOv.ovc; destruct (sub c e); reflexivity. Qed.

Lemma eval_wrap_o e n t r : eval_o (wrap c e n t) r = let '(q, l) := eval_o t r in (ovc_res e n q, l ++ if sub c e then emitted e n q else []).
Proof.
  unfold wrap. destruct (sub c e) eqn:E; cbn [FragOv.eval_o]; destruct (eval_o t r) as [q l]; rewrite ovc_res_sub, E;
    [reflexivity|rewrite app_nil_r; reflexivity].
Qed.

Lemma eval_o_XCmp n l ops comps r :
  eval_o (XCmp n l ops comps) r =
  match eval_o l r with
  | (Ok vl, ll) => let '(q, lq) := chain cmpop (fun x => eval_o x r) vl ops comps in (q, ll ++ lq)
  | (Err e, ll) => (Err e, ll)
  end.
Proof. exact eq_refl. Qed.
Lemma ref_o_XCmp n l ops comps r :
  ref_o (XCmp n l ops comps) r =
  match ref_o l r with
  | (Ok vl, ll) =>
      let vl' := ovc E_left_compare_arg (xid l) vl in
      let '(q, lq) :=
        match odc E_before_compare n, comps with
        | Some y, x :: _ =>
            match ref_o x r with
            | (Ok vc, lc) => (Ok y, lc ++ [(E_compare_arg, xid x, Some vc)])
            | (Err e, lc) => (Err e, lc)
            end
        | _, _ => chain_ref cmpop (fun x => ref_o x r) (ovc E_compare_arg) vl' ops comps
        end in
      (ovc_res E_after_compare n q, (E_before_compare, n, None) :: ll ++ [(E_left_compare_arg, xid l, Some vl)] ++ lq ++ emitted E_after_compare n q)
  | (Err e, ll) => (Err e, (E_before_compare, n, None) :: ll)
  end.
Proof. exact eq_refl. Qed.

Lemma odc_sub e n : odc e n = if sub c e then hd e n else None.
Proof. reflexivity. Qed.

Lemma eval_o_bin_both n op l r0 r :
  eval_o (if sub c E_before_binop then XDefBin n op l r0 else XBin n l op r0) r =
  match eval_o l r with
  | (Ok vl, ll) =>
      match eval_o r0 r with
      | (Ok vr, lr) => (match odc E_before_binop n with Some y => Ok y | None => binop op vl vr end, fl [(E_before_binop, n, None)] ++ ll ++ lr)
      | (Err e, lr) => (Err e, fl [(E_before_binop, n, None)] ++ ll ++ lr)
      end
  | (Err e, ll) => (Err e, fl [(E_before_binop, n, None)] ++ ll)
  end.
Proof.
  rewrite odc_sub, fl_single. destruct (sub c E_before_binop); cbn [FragOv.eval_o];
    destruct (eval_o l r) as [[vl|e] ll]; try reflexivity; destruct (eval_o r0 r) as [[vr|e] lr]; reflexivity.
Qed.

Lemma eval_o_cmp_both n o ops l c0 crest r :
  eval_o (if sub c E_before_compare then XDefCmp n (o :: ops) l c0 crest else XCmp n l (o :: ops) (c0 :: crest)) r =
  match eval_o l r with
  | (Ok vl, ll) =>
      match odc E_before_compare n with
      | Some y => match eval_o c0 r with
                  | (Ok v0, l0) => (Ok y, fl [(E_before_compare, n, None)] ++ ll ++ l0)
                  | (Err e, l0) => (Err e, fl [(E_before_compare, n, None)] ++ ll ++ l0)
                  end
      | None => let '(q, lq) := chain cmpop (fun x => eval_o x r) vl (o :: ops) (c0 :: crest) in (q, fl [(E_before_compare, n, None)] ++ ll ++ lq)
      end
  | (Err e, ll) => (Err e, fl [(E_before_compare, n, None)] ++ ll)
  end.
Proof.
  rewrite odc_sub, fl_single. destruct (sub c E_before_compare).
  - cbn [FragOv.eval_o chain]. fold (chain cmpop (fun x => eval_o x r)).
    destruct (eval_o l r) as [[vl|e] ll]; [|reflexivity].
    destruct (eval_o c0 r) as [[v0|e] l0]; [|destruct (hd E_before_compare n); reflexivity].
    destruct (hd E_before_compare n); [reflexivity|].
    destruct (cmpop o vl v0) as [[|]|e]; try reflexivity.
    destruct crest as [|c1 crest]; [reflexivity|].
    destruct (chain cmpop (fun x => eval_o x r) v0 ops (c1 :: crest)) as [q lq]. reflexivity.
  - rewrite eval_o_XCmp. destruct (eval_o l r) as [[vl|e] ll]; [|reflexivity].
    destruct (chain cmpop (fun x => eval_o x r) vl (o :: ops) (c0 :: crest)). reflexivity.
Qed.

(* an operand under its argument event: the handler's value goes on, the operand's own value is logged *)
Lemma eval_arg_o e t r : eval_o (ie c t) r = flr c (ref_o t r) ->
  eval_o (wrap c e (xid t) (ie c t)) r =
  match ref_o t r with
  | (Ok v, l) => (Ok (ovc e (xid t) v), fl (l ++ [(e, xid t, Some v)]))
  | (Err z, l) => (Err z, fl l)
  end.
Proof. intros H. rewrite eval_wrap_o, H. destruct (ref_o t r) as [[v|z] l]; same. Qed.

Theorem eval_ie_o : forall t, src_e t = true -> forall r, eval_o (ie c t) r = flr c (ref_o t r).
Proof.
  induction t using texpr_ind'; intros Hs r; try discriminate Hs.
  - cbn [ie]. rewrite eval_wrap_o. cbn [FragOv.eval_o FragOv.ref_o]. destruct (r x) as [v|]; same.
  - cbn [ie FragOv.ref_o]. destruct (const_ev c0) as [ev|]; [rewrite eval_wrap_o|]; cbn [FragOv.eval_o]; same.
  - cbn [src_e] in Hs. apply andb_true_iff in Hs as [H1 H2].
    cbn [ie]. rewrite eval_wrap_o, eval_o_bin_both, (eval_arg_o _ _ r (IHt1 H1 r)), (eval_arg_o _ _ r (IHt2 H2 r)). cbn [FragOv.ref_o].
    destruct (ref_o t1 r) as [[vl|e] ll]; [|same].
    destruct (ref_o t2 r) as [[vr|e] lr]; [|same].
    cbv zeta. same.
  - cbn [src_e] in Hs. apply andb_true_iff in Hs as [Hs Hne]. apply andb_true_iff in Hs as [Hs Hlen]. apply andb_true_iff in Hs as [H1 Hc].
    apply Nat.eqb_eq in Hlen.
    destruct comps as [|c0 crest]; [discriminate Hne|]. destruct ops as [|o ops]; [discriminate Hlen|].
    cbn [ie map]. rewrite eval_wrap_o.
    set (f := fun x => wrap c E_compare_arg (xid x) (ie c x)).
    rewrite (eval_o_cmp_both n o ops _ (f c0) (map f crest) r), (eval_arg_o _ _ r (IHt H1 r)), ref_o_XCmp.
    destruct (ref_o t r) as [[vl|e] ll]; [|same].
    assert (Hargs : Forall (fun x => src_e x = true -> eval_o (f x) r =
                            match ref_o x r with
                            | (Ok v, l) => (Ok (ovc E_compare_arg (xid x) v), fl (l ++ [(E_compare_arg, xid x, Some v)]))
                            | (Err z, l) => (Err z, fl l)
                            end) (c0 :: crest))
      by (revert H; apply Forall_impl; intros x Hx Hsx; exact (eval_arg_o _ x r (Hx Hsx r))).
    cbv zeta. destruct (odc E_before_compare n) as [y|].
    + (* the handler replaced the comparison by a constant: the first comparator is still evaluated *)
      cbn [forallb] in Hc. apply andb_true_iff in Hc as [Hc0 _]. rewrite (Forall_inv Hargs Hc0).
      destruct (ref_o c0 r) as [[vc|e] lc]; same.
    + change (f c0 :: map f crest) with (map f (c0 :: crest)).
      rewrite (chain_sim cmpop c (fun x => eval_o x r) (fun x => ref_o x r) f (ovc E_compare_arg) (c0 :: crest) Hargs Hc).
      destruct (chain_ref cmpop (fun x => ref_o x r) (ovc E_compare_arg) (ovc E_left_compare_arg (xid t) vl) (o :: ops) (c0 :: crest)) as [q lq]. same.
  - cbn [src_e] in Hs. cbn [ie FragOv.eval_o FragOv.ref_o]. rewrite (IHt Hs). destruct (ref_o t r) as [[v|e] l]; reflexivity.
  - cbn [src_e] in Hs. cbn [ie].
    apply (bool_sim truth is_and c (fun x => eval_o x r) (fun x => ref_o x r) (ie c)); [|exact Hs].
    revert H. apply Forall_impl. intros x Hx Hsx. exact (Hx Hsx r).
  - cbn [src_e] in Hs. apply andb_true_iff in Hs as [Hs H3]. apply andb_true_iff in Hs as [H1 H2].
    cbn [ie FragOv.eval_o FragOv.ref_o]. rewrite (IHt1 H1). destruct (ref_o t1 r) as [[vc|e] lc]; [|reflexivity]. unfold flr at 1. cbn [fst snd].
    destruct (truth vc); [rewrite (IHt2 H2); destruct (ref_o t2 r)|rewrite (IHt3 H3); destruct (ref_o t3 r)]; same.
Qed.

Notation exec_os := (exec_os binop cmpop unop truth cval is_and hv hd).
Notation exec_ol := (exec_ol binop cmpop unop truth cval is_and hv hd).
Notation ref_os := (ref_os binop cmpop unop truth cval is_and hv hd c).
Notation ref_ol := (ref_ol binop cmpop unop truth cval is_and hv hd c).
Notation ref_omodule := (ref_omodule binop cmpop unop truth cval is_and hv hd c).

Lemma eval_o_rhs_both n v r :
  eval_o (if sub c E_before_assign_rhs then XDefRhs n v else v) r =
  match odc E_before_assign_rhs n with
  | Some y => (Ok y, fl [(E_before_assign_rhs, n, None)])
  | None => let '(q, l) := eval_o v r in (q, fl [(E_before_assign_rhs, n, None)] ++ l)
  end.
Proof.
  rewrite odc_sub, fl_single. destruct (sub c E_before_assign_rhs); cbn [FragOv.eval_o];
    [destruct (hd E_before_assign_rhs n); [reflexivity|]|]; destruct (eval_o v r); reflexivity.
Qed.

Definition ovl : layer c :=
  {| l_ev := eval_o; l_rf := ref_o; l_ovr := ovc_res; l_ov := ovc; l_od := odc;
     ev_wrap := eval_wrap_o; ev_ie := eval_ie_o; ev_rhs := eval_o_rhs_both; ev_const := fun _ _ _ => ex_intro _ _ eq_refl;
     ovr_ok := fun _ _ _ => eq_refl; ovr_err := fun _ _ _ => eq_refl |}.
Lemma exec_os_fix : exec_os = lex truth c ovl.
Proof. exact eq_refl. Qed.
Lemma ref_os_fix : ref_os = lrs truth c ovl.
Proof. exact eq_refl. Qed.

Theorem module_sim_o body : forallb src_s body = true -> forall r sv,
  sim c (exec_ol (instr_module c body) r sv) (ref_omodule body r).
Proof.
  intros Hs r sv. unfold FragOv.ref_omodule. change exec_ol with (run exec_os). change (ref_ol true) with (rrun (ref_os true)).
  rewrite exec_os_fix, ref_os_fix. exact (gmodule_sim truth c ovl body Hs r sv).
Qed.

End OvProofs.

(* the statement: for all primitive operations, handler tables (hv, hd), subscriptions, source modules and environments, the instrumented
   module ends with the exception and bindings of the override reference and delivers its stream *)
Theorem ov_module binop cmpop unop truth cval is_and hv hd c body r sv : forallb src_s body = true ->
  s_exc (exec_ol binop cmpop unop truth cval is_and hv hd (instr_module c body) r sv) = r_exc (ref_omodule binop cmpop unop truth cval is_and hv hd c body r) /\
  s_env (exec_ol binop cmpop unop truth cval is_and hv hd (instr_module c body) r sv) = r_env (ref_omodule binop cmpop unop truth cval is_and hv hd c body r) /\
  filter_log c (s_log (exec_ol binop cmpop unop truth cval is_and hv hd (instr_module c body) r sv)) =
  filter_log c (r_log (ref_omodule binop cmpop unop truth cval is_and hv hd c body r)).
Proof. intros Hs. exact (module_sim_o binop cmpop unop truth cval is_and hv hd c body Hs r sv). Qed.
