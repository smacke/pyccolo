(* Event logs filtered to a subscription (`filter_log c`): the equations the proofs about the fragment models (FragSem, FragOv,
   FragLoop, FragFun, FragProg) rewrite with. *)
From Coq Require Import List NArith Bool.
Import ListNotations.
From PyccoloV Require Import gen.Events model.RwFrag model.FragSem.

Arguments filter_log : simpl never.

Section Log.
Variable c : rcfg.
Notation fl := (filter_log c).

Lemma fl_app a b : fl (a ++ b) = fl a ++ fl b.
Proof. apply filter_app. Qed.
Lemma fl_nil : fl [] = [].
Proof. reflexivity. Qed.
Lemma fl_cons e n v l : fl ((e, n, v) :: l) = (if sub c e then [(e, n, v)] else []) ++ fl l.
Proof. unfold filter_log. cbn [filter fst]. destruct (sub c e); reflexivity. Qed.
Lemma fl_single e n v : fl [(e, n, v)] = if sub c e then [(e, n, v)] else [].
Proof. rewrite fl_cons. apply app_nil_r. Qed.
Lemma fl_if (b : bool) x y : fl (if b then x else y) = if b then fl x else fl y.
Proof. destruct b; reflexivity. Qed.
Lemma fl_emitted e n q : fl (emitted e n q) = if sub c e then emitted e n q else [].
Proof. destruct q; cbn [emitted]; [apply fl_single|destruct (sub c e); reflexivity]. Qed.
Lemma fl_pre p p' a b : fl p = fl p' -> fl a = fl b -> fl (p ++ a) = fl (p' ++ b).
Proof. intros H1 H2. rewrite !fl_app, H1, H2. reflexivity. Qed.

End Log.

Lemma filter_sub (K E : rcfg) l : (forall e, sub K e = true -> sub E e = true) -> filter_log K (filter_log E l) = filter_log K l.
Proof.
  intros H. unfold filter_log. induction l as [|x l IH]; [reflexivity|]. cbn [filter].
  destruct (sub E (fst (fst x))) eqn:Ee; cbn [filter]; destruct (sub K (fst (fst x))) eqn:Ek; rewrite ?IH; try reflexivity.
  rewrite (H _ Ek) in Ee. discriminate Ee.
Qed.
Lemma fl_idem c l : filter_log c (filter_log c l) = filter_log c l.
Proof. apply filter_sub. auto. Qed.
