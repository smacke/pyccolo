(* Docstring positions survive the rewriting: what `check_docs` (model/Erase.v) accepts. *)
From Coq Require Import List ZArith NArith Bool.
Import ListNotations.
From PyccoloV Require Import gen.PyAst gen.Ids model.Tree model.Erase proofs.EraseSound.

(* `subtree t u`: t occurs in u *)
Inductive subtree (t : tree) : tree -> Prop :=
| sub_refl : subtree t t
| sub_child : forall k sc fs f x, In f fs -> In x f -> subtree t x -> subtree t (T k sc fs).

Lemma check_docs_T k sc fs :
  check_docs (T k sc fs) = forallb (forallb check_docs) fs && match scope_body k fs with Some body => doc_head_ok body | None => true end.
Proof.
  reflexivity.
Qed.

Lemma check_docs_subtree t u : subtree t u -> check_docs u = true -> check_docs t = true.
Proof.
  induction 1 as [|k sc fs f x Hf Hx _ IH]; intros H; [exact H|].
  apply IH. rewrite check_docs_T in H. apply andb_prop in H as [H _].
  rewrite forallb_forall in H. specialize (H f Hf). rewrite forallb_forall in H. exact (H x Hx).
Qed.

Lemma erase_docstring d : is_docstring_strict d = true -> erase d = Some [d].
Proof.
  (* one level at a time, in the order in which is_docstring_strict tests them, so that a wrong shape is dismissed once *)
  destruct d as [k sc fs|]; [|discriminate]. cbn [is_docstring_strict].
  destruct sc as [|? ?]; [|discriminate]. destruct fs as [|f fs]; [discriminate|].
  destruct f as [|x f]; [discriminate|]. destruct x as [kc sc' fs'|]; [|discriminate].
  destruct sc' as [|s sc']; [discriminate|]. destruct s; try discriminate.
  destruct fs'; [|discriminate]. destruct f; [|discriminate]. destruct fs; [|discriminate].
  intros H. apply andb_prop in H as [Hk Hc]. apply N.eqb_eq in Hk, Hc. subst k kc. reflexivity.
Qed.

Theorem doc_head_kept body d' rest :
  doc_head_ok body = true -> erase_stmts body = Some (d' :: rest) -> is_docstring_strict d' = true ->
  exists body', body = d' :: body'.
Proof.
  unfold doc_head_ok. intros H E Hd. rewrite E, Hd in H. destruct body as [|d body']; [discriminate|].
  apply tree_eqb_eq in H. subst d. eauto.
Qed.

(* and conversely a docstring written at the head of a body is the head of the erased body: the two programs have their docstrings
   in the same places *)
Theorem doc_head_erased d body l :
  is_docstring_strict d = true -> erase_stmts (d :: body) = Some l -> exists rest, l = d :: rest.
Proof.
  intros Hd. cbn [erase_stmts]. rewrite (erase_docstring d Hd).
  fold (erase_stmts body). destruct (erase_stmts body) as [b|]; [|discriminate]. intros H. inversion H. cbn. eauto.
Qed.

(* every function / class / module body anywhere in an accepted output *)
Theorem check_docs_everywhere out k sc fs body d' rest :
  check_docs out = true -> subtree (T k sc fs) out -> scope_body k fs = Some body ->
  erase_stmts body = Some (d' :: rest) -> is_docstring_strict d' = true ->
  exists body', body = d' :: body'.
Proof.
  intros H Hs Hb E Hd. apply (check_docs_subtree _ _ Hs) in H. rewrite check_docs_T, Hb in H.
  apply andb_prop in H as [_ H]. exact (doc_head_kept body d' rest H E Hd).
Qed.
