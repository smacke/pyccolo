From Coq Require Import List NArith Bool Arith.
Import ListNotations.
From PyccoloV Require Import model.Thunk.

Section Local.
Variable multi : nat -> bool.
Variable top : nat.
Notation step := (step false true multi top).
Notation run := (run false true multi top).

(* per-thread slots, stored on every tracer: a waiting thread finds its own value in the slot of the top tracer *)
Definition Inv (s : st) : Prop :=
  forall t, dead (threads s t) = false /\
            (waiting (threads s t) = true -> exists v rest, todo (threads s t) = Some v :: rest /\ sl s t top = Some v).

(* a step of thread t replaces t's record and leaves the top slots of the other threads alone *)
Lemma upd_inv s t th' sl' : Inv s -> (forall u, u <> t -> sl' u top = sl s u top) -> dead th' = false ->
  (waiting th' = true -> exists v rest, todo th' = Some v :: rest /\ sl' t top = Some v) ->
  expected th' = expected (threads s t) ->
  let s' := {| threads := upd (threads s) t th'; sl := sl' |} in
  Inv s' /\ forall u, expected (threads s' u) = expected (threads s u).
Proof.
  intros HI Hsl Hd Hw He.
  split; intros u; cbn [threads sl]; unfold upd; destruct (Nat.eqb_spec u t) as [->|Hne]; auto.
  rewrite Hsl by exact Hne. apply HI.
Qed.

Lemma step_inv s t : Inv s -> Inv (step s t) /\ forall u, expected (threads (step s t) u) = expected (threads s u).
Proof.
  intros HI. unfold Thunk.step. destruct (HI t) as [Hd Hw]. rewrite Hd.
  destruct (todo (threads s t)) as [|r rest] eqn:Htodo; [now split|].
  assert (Hother : forall u b, u <> t -> (u =? t) && b = false).
  { intros u b Hne. apply Nat.eqb_neq in Hne. now rewrite Hne. }
  destruct (waiting (threads s t)).
  - destruct (Hw eq_refl) as (v & rest' & [= -> ->] & Hsl). unfold key. rewrite Hsl.
    apply upd_inv; auto; try discriminate.
    + intros u Hne. unfold clear, key. now rewrite Hother.
    + unfold expected. cbn. rewrite Htodo. cbn. now rewrite <- app_assoc.
  - assert (Hst : forall u, u <> t -> store false true multi (sl s) t r u top = sl s u top).
    { intros u Hne. unfold store, key. now rewrite Hother. }
    destruct r as [v|]; apply upd_inv; auto; try discriminate.
    + intros _. exists v, rest. split; [reflexivity|]. unfold store, key. now rewrite Nat.eqb_refl.
    + unfold expected. cbn. now rewrite Htodo.
    + unfold expected. cbn. rewrite Htodo. cbn. now rewrite <- app_assoc.
Qed.

Lemma run_inv sched : forall s, Inv s -> Inv (run sched s) /\ forall u, expected (threads (run sched s) u) = expected (threads s u).
Proof.
  induction sched as [|t sched IH]; intros s HI; [split; [exact HI|reflexivity]|].
  cbn [Thunk.run fold_left]. destruct (step_inv s t HI) as [HI1 He1].
  destruct (IH _ HI1) as [HI2 He2]. split; [exact HI2|]. intros u. unfold Thunk.run in He2. rewrite He2. apply He1.
Qed.

Lemma init_inv progs : Inv (init progs).
Proof. intros t. cbn. split; [reflexivity|discriminate]. Qed.

(* every thread, whatever the others do and however they interleave: what it has done so far is a prefix of what it does alone, and it has not failed *)
Theorem local_threads_undisturbed progs sched u :
  let th := threads (run sched (init progs)) u in
  outs th ++ map spec_out (todo th) = map spec_out (progs u) /\ dead th = false.
Proof.
  destruct (run_inv sched (init progs) (init_inv progs)) as [HI He]. cbn zeta. split.
  - exact (He u).
  - exact (proj1 (HI u)).
Qed.
End Local.

(* one slot per tracer for the whole process: a worker's emission in the window destroys the main thread's value *)
Example shared_refuted :
  let s := Thunk.run true false (fun _ => true) 0 [0; 1; 0]%nat (init (fun t => if t =? 0 then [Some 7%N] else [None])) in
  outs (threads s 0) = [Fail].
Proof. reflexivity. Qed.

(* per-thread slots stored only on tracers that may see the thread: a worker statement replaced by a multi-thread tracer below a main-only top tracer fails *)
Example visible_only_refuted :
  let s := Thunk.run false false (fun k => k =? 0) 1 [1; 1]%nat (init (fun t => if t =? 1 then [Some 7%N] else [])) in
  outs (threads s 1) = [Fail].
Proof. reflexivity. Qed.
