(* Soundness of the erasure checker (C01): erasure is sound for EVERY semantics of the generic tree that satisfies the laws below.
   D = denotations (of expressions and statements alike), sem = how a construct combines the meanings of its fields,
   den = the fold of sem.  eqvl relates two statement/expression sequences with the same observable behaviour.
   The laws are Section hypotheses: after the section they are explicit premises of the theorem (no axioms). *)
From Coq Require Import List ZArith NArith Bool.
Import ListNotations.
From PyccoloV Require Import gen.PyAst gen.Ids model.Tree model.Erase model.Sites.

Section tree_ind2.
  Variable P : tree -> Prop.
  Hypothesis HN : P NoneNode.
  Hypothesis HT : forall k sc fs, Forall (Forall P) fs -> P (T k sc fs).
  Fixpoint tree_ind2 (t : tree) : P t :=
    match t with
    | NoneNode => HN
    | T k sc fs => HT k sc fs
        ((fix gof (l : list (list tree)) : Forall (Forall P) l :=
            match l with
            | [] => Forall_nil _
            | f :: l' => Forall_cons f ((fix gol (u : list tree) : Forall P u :=
                                           match u with [] => Forall_nil _ | x :: u' => Forall_cons x (tree_ind2 x) (gol u') end) f) (gof l')
            end) fs)
    end.
End tree_ind2.

(* scalars_eqb, trees_eqb and the two inner loops of tree_eqb are all list_eqb, by computation *)
Definition list_eqb {A} (eqb : A -> A -> bool) : list A -> list A -> bool :=
  fix go a b := match a, b with [], [] => true | x :: a', y :: b' => eqb x y && go a' b' | _, _ => false end.
Lemma list_eqb_eq {A} (eqb : A -> A -> bool) a : Forall (fun x => forall y, eqb x y = true -> x = y) a ->
  forall b, list_eqb eqb a b = true -> a = b.
Proof.
  induction 1 as [|x a Hx _ IH]; intros [|y b] H; try discriminate; auto.
  apply andb_prop in H as [H1 H2]. f_equal; auto.
Qed.
Lemma scalar_eqb_eq a b : scalar_eqb a b = true -> a = b.
Proof.
  destruct a, b; try discriminate; auto; intros H; f_equal;
    first [apply Bool.eqb_prop, H | apply Z.eqb_eq, H | apply N.eqb_eq, H].
Qed.

(* the two inner loops of erase, named *)
Definition erase_list (l : list tree) : option (list tree) :=
  (fix gol (u : list tree) {struct u} : option (list tree) :=
     match u with
     | [] => Some []
     | x :: u' => match erase x, gol u' with Some a, Some b => Some (a ++ b) | _, _ => None end
     end) l.
Definition erase_fields (fs : list (list tree)) : option (list (list tree)) :=
  (fix gof (l : list (list tree)) {struct l} : option (list (list tree)) :=
     match l with
     | [] => Some []
     | f :: l' => match erase_list f, gof l' with Some a, Some b => Some (a :: b) | _, _ => None end
     end) fs.
Lemma erase_T k sc fs : erase (T k sc fs) = match erase_fields fs with Some fs' => post k sc fs' | None => None end.
Proof. reflexivity. Qed.

(* the same two loops of any traversal `e` that erases the children of a node before it rewrites the root
   (Erase.erase, Prune.erase_gen): inner_list erase is erase_list, inner_fields erase is erase_fields, by computation *)
Definition inner_list (e : tree -> option (list tree)) : list tree -> option (list tree) :=
  fix gol u := match u with
               | [] => Some []
               | x :: u' => match e x, gol u' with Some a, Some b => Some (a ++ b) | _, _ => None end
               end.
Definition inner_fields (e : tree -> option (list tree)) : list (list tree) -> option (list (list tree)) :=
  fix gof l := match l with
               | [] => Some []
               | f :: l' => match inner_list e f, gof l' with Some a, Some b => Some (a :: b) | _, _ => None end
               end.

(* `post` is a cascade of six tests on the kind; stated over variables, so that the branches are not carried through a proof *)
Lemma cascade_last {A} (b1 b2 b3 b4 b5 b6 : bool) (x1 x2 x3 x4 x5 x6 y : A) :
  b1 = false -> b2 = false -> b3 = false -> b4 = false -> b5 = false -> b6 = false ->
  (if b1 then x1 else if b2 then x2 else if b3 then x3 else if b4 then x4 else if b5 then x5 else if b6 then x6 else y) = y.
Proof. now intros -> -> -> -> -> ->. Qed.

Section Abs.
  Variable D : Type.
  Variable dnone : D.
  Variable sem : N -> list scalar -> list (list D) -> D.
  Fixpoint den (t : tree) : D :=
    match t with
    | NoneNode => dnone
    | T k sc fs => sem k sc ((fix gof (l : list (list tree)) : list (list D) := match l with [] => [] | f :: l' =>
                      (fix gol (u : list tree) : list D := match u with [] => [] | x :: u' => den x :: gol u' end) f :: gof l' end) fs)
    end.
  Lemma den_T k sc fs : den (T k sc fs) = sem k sc (map (map den) fs).
  Proof.
    reflexivity.
  Qed.

  Variable eqvl : list D -> list D -> Prop.
  Hypothesis eqvl_refl : forall l, eqvl l l.
  Hypothesis eqvl_trans : forall a b c, eqvl a b -> eqvl b c -> eqvl a c.
  Hypothesis eqvl_app : forall a a' b b', eqvl a a' -> eqvl b b' -> eqvl (a ++ b) (a' ++ b').
  (* Python constructs cannot observe instrumentation: replacing the fields of any construct by equivalent sequences
     gives an equivalent construct (non-interference) *)
  Hypothesis sem_cong : forall k sc fs fs', Forall2 eqvl fs fs' -> eqvl [sem k sc fs] [sem k sc fs'].

  Lemma inner_list_sound e f : Forall (fun t => forall l, e t = Some l -> eqvl [den t] (map den l)) f ->
    forall l, inner_list e f = Some l -> eqvl (map den f) (map den l).
  Proof.
    induction 1 as [|x f Hx _ IH]; cbn; intros l H.
    - injection H as <-. apply eqvl_refl.
    - destruct (e x) as [a|]; [|discriminate]. destruct (inner_list e f) as [b|]; [|discriminate].
      injection H as <-. rewrite map_app. apply (eqvl_app [_]); auto.
  Qed.

  Lemma inner_fields_sound e fs : Forall (Forall (fun t => forall l, e t = Some l -> eqvl [den t] (map den l))) fs ->
    forall fs', inner_fields e fs = Some fs' -> Forall2 eqvl (map (map den) fs) (map (map den) fs').
  Proof.
    induction 1 as [|f fs Hf _ IH]; cbn; intros fs' H.
    - injection H as <-. constructor.
    - destruct (inner_list e f) as [a|] eqn:Ea; [|discriminate]. destruct (inner_fields e fs) as [b|]; [|discriminate].
      injection H as <-. constructor; auto. exact (inner_list_sound e f Hf a Ea).
  Qed.

  Theorem bottom_up_sound e pst :
    e NoneNode = Some [NoneNode] ->
    (forall k sc fs, e (T k sc fs) = match inner_fields e fs with Some fs' => pst k sc fs' | None => None end) ->
    (forall k sc fs l, pst k sc fs = Some l -> eqvl [den (T k sc fs)] (map den l)) ->
    forall t l, e t = Some l -> eqvl [den t] (map den l).
  Proof.
    intros HN HT Hpst. induction t as [|k sc fs IH] using tree_ind2; intros l H.
    - rewrite HN in H. injection H as <-. apply eqvl_refl.
    - rewrite HT in H. destruct (inner_fields e fs) as [fs'|] eqn:Ef; [|discriminate].
      eapply eqvl_trans; [|apply (Hpst k sc fs' l H)].
      rewrite !den_T. apply sem_cong. exact (inner_fields_sound e fs IH fs' Ef).
  Qed.

  (* every root rewrite of the erasure is valid in the semantics: one law per instrumentation shape, bundled by the
     kind of the node it rewrites (emit calls and deferred applications; guard IfExp; guard / before_stmt If;
     try-finally and the NameError fallback; bare emit statements; saved-slice subscripts) *)
  Hypothesis law_call : forall sc fs l, post kCall sc fs = Some l -> eqvl [den (T kCall sc fs)] (map den l).
  Hypothesis law_ifexp : forall sc fs l, post kIfExp sc fs = Some l -> eqvl [den (T kIfExp sc fs)] (map den l).
  Hypothesis law_if : forall sc fs l, post kIf sc fs = Some l -> eqvl [den (T kIf sc fs)] (map den l).
  Hypothesis law_try : forall sc fs l, post kTry sc fs = Some l -> eqvl [den (T kTry sc fs)] (map den l).
  Hypothesis law_expr : forall sc fs l, post kExpr sc fs = Some l -> eqvl [den (T kExpr sc fs)] (map den l).
  Hypothesis law_subscript : forall sc fs l, post kSubscript sc fs = Some l -> eqvl [den (T kSubscript sc fs)] (map den l).

  Lemma post_other k sc fs : N.eqb k kCall = false -> N.eqb k kIfExp = false -> N.eqb k kIf = false -> N.eqb k kTry = false ->
    N.eqb k kExpr = false -> N.eqb k kSubscript = false -> post k sc fs = Some [T k sc fs].
  Proof. apply cascade_last. Qed.

  Lemma post_sound k sc fs l : post k sc fs = Some l -> eqvl [den (T k sc fs)] (map den l).
  Proof.
    intros H.
    destruct (N.eqb_spec k kCall) as [->|N1]; [now apply law_call|].
    destruct (N.eqb_spec k kIfExp) as [->|N2]; [now apply law_ifexp|].
    destruct (N.eqb_spec k kIf) as [->|N3]; [now apply law_if|].
    destruct (N.eqb_spec k kTry) as [->|N4]; [now apply law_try|].
    destruct (N.eqb_spec k kExpr) as [->|N5]; [now apply law_expr|].
    destruct (N.eqb_spec k kSubscript) as [->|N6]; [now apply law_subscript|].
    rewrite post_other in H by now apply N.eqb_neq. injection H as <-. apply eqvl_refl.
  Qed.

  Theorem erase_sound : forall t l, erase t = Some l -> eqvl [den t] (map den l).
  Proof. exact (bottom_up_sound erase post eq_refl erase_T post_sound). Qed.

  (* the three deliberate source changes (slice syntax -> slice() call, bare except -> except BaseException, hoisted
     global/nonlocal declarations) do not change behaviour *)
  Hypothesis law_norm : forall t, eqvl [den (norm t)] [den t].
  Lemma tree_eqb_eq : forall a b, tree_eqb a b = true -> a = b.
  Proof.
    induction a as [|k sc fs IH] using tree_ind2; intros [k' sc' fs'|]; cbn; try discriminate; auto.
    intros H. apply andb_prop in H as [H Hfs]. apply andb_prop in H as [Hk Hsc].
    apply N.eqb_eq in Hk.
    apply (list_eqb_eq scalar_eqb) in Hsc; [|apply Forall_forall; intros x _; apply scalar_eqb_eq].
    apply (list_eqb_eq (list_eqb tree_eqb)) in Hfs; [now subst|].
    eapply Forall_impl; [|exact IH]. intros f Hf. apply list_eqb_eq, Hf.
  Qed.
  (* what both checkers test: `out` erases to exactly the normalised `v` *)
  Lemma erases_to_norm out v : match erase out with Some [x] => tree_eqb x (norm v) | _ => false end = true -> eqvl [den out] [den v].
  Proof.
    intros H. destruct (erase out) as [[|x [|? ?]]|] eqn:E; try discriminate.
    apply tree_eqb_eq in H. subst x.
    eapply eqvl_trans; [apply (erase_sound out _ E)|]. apply law_norm.
  Qed.
  (* the certificate: if the check passes, the rewritten program and the source are equivalent *)
  Theorem check_erase_sound src out : check_erase src out = true -> eqvl [den out] [den src].
  Proof. exact (erases_to_norm out src). Qed.

  (* C02, static half: at a site that passes the check, the expression whose value is handed to the handler is equivalent
     to the source construct (node number n of the source, or its designated child) the event is defined to report *)
  Theorem site_ok_sound pre t ev n rest kws r node s v :
    emit_parts t = Some (ev, SNid n, rest, kws) -> sel_of ev = Some s -> kw_value id_ret kws = Some r -> tlam_parts r = None ->
    nth_error pre (N.to_nat n) = Some node -> select s node = Some v ->
    site_ok pre t = true -> eqvl [den r] [den v].
  Proof.
    intros He Hs Hr Ht Hn Hv H. unfold site_ok in H. rewrite He, Hs, Hr, Ht, Hn, Hv in H.
    exact (erases_to_norm r v H).
  Qed.
End Abs.
