(* C11: what the code's evaluation of a condition computes (callp / dynp / .static), that any / all are the boolean
   combinations, and exactly at which nodes a conditional handler is invoked. *)
From Coq Require Import List NArith Bool Arith.
Import ListNotations.
From PyccoloV Require Import gen.PredGen model.Pred.

Section pred_ind2.
  Variable P : pred -> Prop.
  Hypothesis HT : P PTrue.
  Hypothesis HF : P PFalse.
  Hypothesis HB : forall s c, P (PBase s c).
  Hypothesis HC : forall a parts, Forall P parts -> P (PComp a parts).
  Fixpoint pred_ind2 (p : pred) : P p :=
    match p with
    | PTrue => HT | PFalse => HF | PBase s c => HB s c
    | PComp a parts => HC a parts ((fix go (l : list pred) : Forall P l :=
                                      match l with [] => Forall_nil _ | x :: l' => Forall_cons x (pred_ind2 x) (go l') end) parts)
    end.
End pred_ind2.

Lemma p_static_comp a parts :
  p_static (PComp a parts) = comp_static (length (filter comp_is_dynamic_part (map p_static parts))).
Proof. reflexivity. Qed.
Lemma wf_comp a parts : wf (PComp a parts) = negb (Nat.eqb (length parts) 0) && forallb wf parts.
Proof. reflexivity. Qed.

Section AtNode.
  Variable env : N -> bool.

  Lemma holds_comp a parts :
    holds env (PComp a parts) = if a then existsb (holds env) parts else forallb (holds env) parts.
  Proof. destruct a; reflexivity. Qed.

  (* the reduction runs over p(node) of every part, and dynamic_call of a composite looks at nothing but its p(node) *)
  Lemma callp_comp a parts : callp env (PComp a parts) = reduce a (map (callp env) parts).
  Proof. exact (f_equal (reduce a) (map_map (fun x => (p_static x, evalp env x)) (fun r => fst (snd r)) parts)). Qed.
  Lemma dynp_comp a parts : dynp env (PComp a parts) = if p_static (PComp a parts) then true else callp env (PComp a parts).
  Proof. reflexivity. Qed.

  Lemma reduce_map {A} (f : A -> bool) a l : reduce a (map f l) = if a then existsb f l else forallb f l.
  Proof. unfold reduce. destruct a; induction l as [|x l IH]; cbn; auto; now rewrite IH. Qed.

  (* the code's evaluation: p(node) is the meaning; p.dynamic_call(node) is `True` for a static condition and the
     meaning otherwise *)
  Theorem evalp_meaning : forall p, wf p = true ->
    callp env p = holds env p /\ dynp env p = (if p_static p then true else holds env p).
  Proof.
    induction p as [| |s c|a parts IH] using pred_ind2; intros Hw.
    - split; reflexivity.
    - split; reflexivity.
    - split; [reflexivity|]. now destruct s.
    - rewrite wf_comp in Hw. apply andb_prop in Hw as [_ Hw]. rewrite forallb_forall in Hw. rewrite Forall_forall in IH.
      rewrite dynp_comp, callp_comp, holds_comp, <- reduce_map.
      rewrite (map_ext_in (callp env) (holds env)) by (intros x Hx; apply (IH x Hx (Hw x Hx))).
      split; reflexivity.
  Qed.

  Lemma ident_true_holds ps : existsb (ident_eqb IsTrue) (map ident_of ps) = true -> existsb (holds env) ps = true.
  Proof.
    induction ps as [|p l IH]; cbn; [discriminate|]. intros H. apply orb_prop in H as [H|H].
    - destruct p; try discriminate. reflexivity.
    - rewrite (IH H). apply orb_true_r.
  Qed.
  Lemma ident_all_false ps : forallb (ident_eqb IsFalse) (map ident_of ps) = true -> existsb (holds env) ps = false.
  Proof.
    induction ps as [|p l IH]; cbn; [reflexivity|]. intros H. apply andb_prop in H as [H1 H2].
    destruct p; try discriminate. cbn. now apply IH.
  Qed.
  Lemma ident_false_holds ps : existsb (ident_eqb IsFalse) (map ident_of ps) = true -> forallb (holds env) ps = false.
  Proof.
    induction ps as [|p l IH]; cbn; [discriminate|]. intros H. apply orb_prop in H as [H|H].
    - destruct p; try discriminate. reflexivity.
    - rewrite (IH H). apply andb_false_r.
  Qed.
  Lemma ident_all_true ps : forallb (ident_eqb IsTrue) (map ident_of ps) = true -> forallb (holds env) ps = true.
  Proof.
    induction ps as [|p l IH]; cbn; [reflexivity|]. intros H. apply andb_prop in H as [H1 H2].
    destruct p; try discriminate. cbn. now apply IH.
  Qed.

  (* any / all: the coalescing of Predicate.TRUE / Predicate.FALSE parts does not change the meaning *)
  Theorem pany_meaning ps : ps <> [] -> holds env (pany ps) = existsb (holds env) ps.
  Proof.
    intros Hne. unfold pany, any_coalesce.
    destruct (Nat.eqb (length (map ident_of ps)) 0) eqn:El.
    { apply Nat.eqb_eq in El. rewrite map_length in El. destruct ps; [congruence|discriminate]. }
    cbn [orb].
    destruct (existsb (ident_eqb IsTrue) (map ident_of ps)) eqn:E1.
    { cbn. symmetry. now apply ident_true_holds. }
    destruct (forallb (ident_eqb IsFalse) (map ident_of ps)) eqn:E2.
    { cbn. symmetry. now apply ident_all_false. }
    now rewrite holds_comp.
  Qed.
  Theorem pall_meaning ps : holds env (pall ps) = forallb (holds env) ps.
  Proof.
    unfold pall, all_coalesce.
    destruct (existsb (ident_eqb IsFalse) (map ident_of ps)) eqn:E1.
    { cbn. symmetry. now apply ident_false_holds. }
    destruct (forallb (ident_eqb IsTrue) (map ident_of ps)) eqn:E2.
    { cbn. symmetry. now apply ident_all_true. }
    now rewrite holds_comp.
  Qed.
  (* the one place where `any` is not the disjunction: the empty list gives Predicate.TRUE (the suite asserts it) *)
  Lemma pany_nil : holds env (pany []) = true /\ existsb (holds env) [] = false.
  Proof. split; reflexivity. Qed.

  Lemma wf_pany ps : forallb wf ps = true -> wf (pany ps) = true.
  Proof.
    intros H. unfold pany. destruct (any_coalesce (map ident_of ps)) eqn:E; try reflexivity.
    rewrite wf_comp, H, andb_true_r. unfold any_coalesce in E.
    destruct (Nat.eqb (length (map ident_of ps)) 0) eqn:El; [discriminate|]. rewrite map_length in El. now rewrite El.
  Qed.
  Lemma wf_pall ps : forallb wf ps = true -> wf (pall ps) = true.
  Proof.
    intros H. unfold pall. destruct (all_coalesce (map ident_of ps)) eqn:E; try reflexivity.
    rewrite wf_comp, H, andb_true_r. unfold all_coalesce in E.
    destruct ps; [|reflexivity]. cbn in E. discriminate.
  Qed.

  Lemma site_meaning hs : hs <> [] -> forallb wf hs = true -> site env hs = existsb (holds env) hs.
  Proof.
    intros Hne Hw. unfold site, site_reducer_is_any. rewrite (proj1 (evalp_meaning _ (wf_pany hs Hw))). now apply pany_meaning.
  Qed.
  Lemma deliver_meaning p : wf p = true -> deliver env p = p_static p || holds env p.
  Proof.
    intros Hw. unfold deliver, deliver_test. destruct (evalp_meaning p Hw) as [_ Hd]. rewrite Hd.
    destruct (p_static p) eqn:Es.
    - cbn [orb]. apply orb_true_r.
    - destruct p; cbn [ident_of ident_eqb orb]; reflexivity.
  Qed.

  (* characterisation: the handler with condition p, among the handlers hs of the event, is invoked at this node iff
     some handler's condition holds here and (p is wholly static or p holds here) *)
  Theorem invoked_char hs p : hs <> [] -> forallb wf hs = true -> wf p = true ->
    invoked env hs p = existsb (holds env) hs && (p_static p || holds env p).
  Proof. intros Hne Hw Hp. unfold invoked. now rewrite site_meaning, deliver_meaning. Qed.

  Corollary invoked_member hs p : In p hs -> forallb wf hs = true ->
    invoked env hs p = existsb (holds env) hs && (p_static p || holds env p).
  Proof.
    intros Hin Hw. apply invoked_char; [now destruct hs|exact Hw|]. rewrite forallb_forall in Hw. auto.
  Qed.

  Lemma in_existsb p hs : In p hs -> holds env p = true -> existsb (holds env) hs = true.
  Proof. intros Hin Hp. apply existsb_exists. eauto. Qed.

  (* exactness for every condition that is not wholly static (Predicate.TRUE, dynamic conditions, composites with at
     least one dynamic part), whatever the other handlers of the event are *)
  Theorem invoked_exact_nonstatic hs p : In p hs -> forallb wf hs = true -> p_static p = false ->
    invoked env hs p = holds env p.
  Proof.
    intros Hin Hw Hs. rewrite invoked_member, Hs by assumption. cbn [orb].
    destruct (holds env p) eqn:E; [|apply andb_false_r]. now rewrite (in_existsb p hs Hin E).
  Qed.
  (* exactness for ANY condition when the handler is the only one of its event *)
  Theorem invoked_exact_sole p : wf p = true -> invoked env [p] p = holds env p.
  Proof.
    intros Hp. rewrite invoked_member; [|now left|cbn; now rewrite Hp].
    cbn [existsb]. rewrite orb_false_r. destruct (holds env p); [apply orb_true_r|reflexivity].
  Qed.
  (* no occurrence is ever missed *)
  Theorem invoked_no_miss hs p : In p hs -> forallb wf hs = true -> holds env p = true -> invoked env hs p = true.
  Proof.
    intros Hin Hw E. rewrite invoked_member, E, (in_existsb p hs Hin E) by assumption. apply orb_true_r.
  Qed.

  Variable G : N -> bool.
  Lemma existsb_const x gs : In x gs -> (forall y, In y gs -> y = x) -> existsb G gs = G x.
  Proof.
    intros Hin Hall. apply eq_true_iff_eq. rewrite existsb_exists.
    split; [intros (y & Hy & E); now rewrite <- (Hall y Hy)|eauto].
  Qed.
  (* all guarded handlers of the site name the same guard x: the handler is skipped, and the pristine expression is
     evaluated instead of the emit call, exactly while x is set *)
  Theorem guard_exact hs gs p x : In x gs -> (forall y, In y gs -> y = x) ->
    invoked_g env G hs gs p (Some x) = negb (G x) && invoked env hs p /\ pristine_taken G gs = G x.
  Proof.
    intros Hin Hall. unfold invoked_g, pristine_taken, guard_skips, invoked. rewrite (existsb_const x gs Hin Hall).
    split; [|reflexivity]. destruct (G x); cbn; [reflexivity|]. now rewrite andb_true_r.
  Qed.
  Theorem unguarded_site hs p : invoked_g env G hs [] p None = invoked env hs p.
  Proof. unfold invoked_g, invoked. cbn. now rewrite andb_true_r. Qed.
End AtNode.

(* the two ways exactness fails on the code as it is (recorded findings) *)
Theorem static_shared_refuted : exists env hs p, In p hs /\ forallb wf hs = true /\ invoked env hs p = true /\ holds env p = false.
Proof. exists (fun _ => false), [PBase true 0%N; PTrue], (PBase true 0%N). cbn. repeat split; auto. Qed.
Theorem guard_other_refuted : exists env G hs gs p,
  In p hs /\ holds env p = true /\ In 2%N gs /\ G 2%N = false /\ invoked_g env G hs gs p (Some 2%N) = false.
Proof.
  exists (fun _ => true), (fun g => N.eqb g 1), [PTrue; PTrue], [1%N; 2%N], PTrue. cbn. repeat split; auto.
Qed.

(* conditions that raise: with the parts of a composite evaluated under comp_part_guard, the whole decision procedure is
   the total one over `total envx` (raising = not satisfied), and the rewrite is never aborted *)
Definition tot (r : option bool) : bool := match r with Some b => b | None => false end.

Lemma reduce_x_some a l : reduce_x a (map Some l) = Some (reduce a l).
Proof.
  unfold reduce. induction l as [|b l IH]; cbn [map reduce_x]; [now destruct a|].
  destruct a, b; cbn [Bool.eqb existsb forallb orb andb]; auto.
Qed.
Lemma guard_tot r : comp_part_guard r = Some (tot r).
Proof. now destruct r as [[|]|]. Qed.

Section AtNodeX.
  Variable envx : N -> option bool.
  Let env := total envx.

  Lemma evalx_comp a parts :
    fst (evalx envx (PComp a parts)) =
      reduce_x a (map (fun r => comp_part_guard (fst (snd r))) (map (fun x => (p_static x, evalx envx x)) parts)).
  Proof. reflexivity. Qed.

  Lemma dynx_comp a parts :
    snd (evalx envx (PComp a parts)) = if p_static (PComp a parts) then Some true else fst (evalx envx (PComp a parts)).
  Proof. reflexivity. Qed.

  (* a composite (and a singleton) never raises; a base condition raises exactly when its function does *)
  Definition never_raises (p : pred) : Prop := match p with PBase _ _ => True | _ => fst (evalx envx p) <> None /\ snd (evalx envx p) <> None end.

  Theorem evalx_total : forall p,
    tot (fst (evalx envx p)) = callp env p /\ tot (snd (evalx envx p)) = dynp env p /\ never_raises p.
  Proof.
    induction p as [| |s c|a parts IH] using pred_ind2.
    - cbn. repeat split; discriminate.
    - cbn. repeat split; discriminate.
    - cbn. unfold env, total, base_dynamic_call_x, base_dynamic_call. destruct s, (envx c) as [[|]|]; repeat split.
    - rewrite Forall_forall in IH.
      assert (C : fst (evalx envx (PComp a parts)) = Some (callp env (PComp a parts))).
      { rewrite evalx_comp, callp_comp, <- reduce_x_some, !map_map. f_equal.
        apply map_ext_in. intros x Hx. cbn [fst snd]. rewrite guard_tot. f_equal. apply (IH x Hx). }
      unfold never_raises. rewrite dynx_comp, dynp_comp, C.
      destruct (p_static (PComp a parts)); repeat split; discriminate.
  Qed.

  Lemma callx_total p : match p with PBase _ _ => False | _ => True end -> fst (evalx envx p) = Some (callp env p).
  Proof.
    intros Hp. destruct (evalx_total p) as (H1 & _ & H3). rewrite <- H1.
    destruct p; try contradiction; destruct H3 as [H3 _]; now destruct (fst (evalx envx _)).
  Qed.

  Lemma site_x_total hs : site_x envx hs = Some (site env hs).
  Proof.
    apply callx_total. unfold pany, pall.
    destruct site_reducer_is_any; [destruct (any_coalesce (map ident_of hs))|destruct (all_coalesce (map ident_of hs))]; exact I.
  Qed.

  Lemma deliver_x_total p : deliver_x envx p = deliver env p.
  Proof.
    unfold deliver_x, deliver. destruct (evalx_total p) as (H1 & H2 & _).
    rewrite <- H1, <- H2. unfold deliver_test_x, deliver_test.
    destruct (ident_eqb (ident_of p) IsTrue), (p_static p), (snd (evalx envx p)) as [[|]|]; reflexivity.
  Qed.

  Theorem invoked_x_total hs p : invoked_x envx hs p = Some (invoked env hs p).
  Proof. unfold invoked_x, invoked. now rewrite site_x_total, deliver_x_total. Qed.
  Theorem invoked_gx_total G hs gs p g : invoked_gx envx G hs gs p g = Some (invoked_g env G hs gs p g).
  Proof. unfold invoked_gx, invoked_g. now rewrite site_x_total, deliver_x_total. Qed.
End AtNodeX.
