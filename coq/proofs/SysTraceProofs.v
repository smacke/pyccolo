(* C09: under the composed tracer the handler log is the plain event stream filtered by the subscription, and a
   third-party trace function sees exactly what it sees without pyccolo. *)
From Coq Require Import List NArith Bool.
Import ListNotations.
From PyccoloV Require Import model.SysTrace.

Fixpoint node_ind2 (P : node -> Prop) (H : forall t cs, Forall P cs -> P (Nd t cs)) (n : node) : P n :=
  match n with
  | Nd t cs => H t cs ((fix go (l : list node) : Forall P l :=
                          match l with [] => Forall_nil P | x :: l' => Forall_cons x (node_ind2 P H x) (go l') end) cs)
  end.

(* the handlers see in `l` the subscribed ones among the plain recorder's events `evs`, the third party sees in `l` what it sees in `lp` *)
Definition agree (c : cfg) (l lp : list logent) (evs : list (sevt * N)) : Prop :=
  handler_log l = filter (fun e => sub c (fst e)) evs /\ third_log l = third_log lp.

Lemma agree_app {c l l' lp lp' evs evs'} :
  agree c l lp evs -> agree c l' lp' evs' -> agree c (l ++ l') (lp ++ lp') (evs ++ evs').
Proof.
  intros [H T] [H' T']. split.
  - unfold handler_log. rewrite !filter_app, map_app. f_equal; assumption.
  - unfold third_log. rewrite !filter_app. f_equal; assumption.
Qed.
Lemma agree_handlers c acc e name : agree c (if acc && sub c e then [(WH, e, name)] else []) [] (if acc then [(e, name)] else []).
Proof. unfold agree. destruct acc; cbn; [destruct (sub c e)|]; split; reflexivity. Qed.
Lemma agree_call_tp c v e name : agree c (snd (call_tp c v e name)) (snd (call_tp c v e name)) [].
Proof. unfold call_tp. destruct (tp c), v, e; split; reflexivity. Qed.

(* the third party's local function for a frame is stable: a third-party function called for a non-call event
   returns itself (or nothing when there is none) *)
Definition tp_local (v : tfv) : bool := match v with VNone | VTpGlob | VTpLoc => true | _ => false end.
Definition is_call (e : sevt) : bool := match e with SCall => true | _ => false end.

Lemma call_tp_keeps c v e name : is_call e = false ->
  (if is_none (fst (call_tp c v e name)) then v else fst (call_tp c v e name)) = v.
Proof. intros He. unfold call_tp. destruct (tp c), v, e; cbn in *; try discriminate; reflexivity. Qed.
Lemma call_tp_local c v e name : tp_local (fst (call_tp c v e name)) = true.
Proof. unfold call_tp. destruct (tp c) as [t|], v, e; cbn; try reflexivity; destruct (tp_accepts t name), (tp_self t); reflexivity. Qed.
Lemma call_tp_none c e name : call_tp c VNone e name = (VNone, []).
Proof. unfold call_tp. destruct (tp c); reflexivity. Qed.
Lemma call_v_local c v e acc name : tp_local v = true -> call_v c v e acc name = call_tp c v e name.
Proof. destruct v; try discriminate; intros _; [symmetry; apply call_tp_none|reflexivity|reflexivity]. Qed.

(* relation between the frame's local trace function under pyccolo (ft) and without it (fp) *)
Definition rel (c : cfg) (acc : bool) (ft fp : tfv) : Prop :=
  tp_local fp = true /\
  (if acc then ft = (match tp c with Some _ => VComp fp | None => VSys end) /\ (tp c = None -> fp = VNone)
   else ft = fp).

Lemma composed_event c ft fp e name : rel c true ft fp -> is_call e = false ->
  call_v c ft e true name = (VNone, (if sub c e then [(WH, e, name)] else []) ++ snd (call_tp c fp e name)).
Proof.
  intros [_ [-> Hn]] He. destruct (tp c) eqn:Et; [|rewrite (Hn eq_refl)]; unfold call_v; rewrite ?Et.
  all: destruct (call_tp c _ e name); destruct e; try discriminate; reflexivity.
Qed.

Lemma event_step c acc name ft fp e : rel c acc ft fp -> is_call e = false ->
  let '(r, l) := call_v c ft e acc name in
  let '(rp, lp) := call_v c fp e acc name in
  rel c acc (if is_none r then ft else r) (if is_none rp then fp else rp) /\
  agree c l lp (if acc then [(e, name)] else []).
Proof.
  intros R He.
  pose proof (call_tp_keeps c fp e name He) as K. pose proof (agree_call_tp c fp e name) as A.
  destruct acc.
  - rewrite (composed_event c ft fp e name R He), (call_v_local c fp) by apply R.
    destruct (call_tp c fp e name) as [rp lp]. cbn [fst snd is_none] in *. rewrite K.
    split; [exact R|]. rewrite <- (app_nil_r [(e, name)]). exact (agree_app (lp:=[]) (agree_handlers c true e name) A).
  - destruct R as [Hl ->]. rewrite (call_v_local c fp) by exact Hl.
    destruct (call_tp c fp e name) as [rp lp]. cbn [fst snd] in *. rewrite K. split; [split; trivial|exact A].
Qed.

Lemma call_step c acc name :
  let '(ft, l) := call_v c VSys SCall acc name in
  let '(fp, lp) := call_v c (global_of c) SCall acc name in
  rel c acc ft fp /\ agree c l lp (if acc then [(SCall, name)] else []).
Proof.
  rewrite (call_v_local c (global_of c)) by (unfold global_of; destruct (tp c); reflexivity).
  cbn [call_v]. fold (global_of c).
  pose proof (call_tp_local c (global_of c) SCall name) as Hl. pose proof (agree_call_tp c (global_of c) SCall name) as A.
  destruct (call_tp c (global_of c) SCall name) as [fp lp] eqn:Ec. cbn [fst snd] in *.
  split.
  - split; [exact Hl|]. destruct acc; [|reflexivity]. unfold global_of in *. destruct (tp c).
    + split; [|discriminate]. destruct fp; try discriminate; reflexivity.
    + rewrite call_tp_none in Ec. injection Ec as <- _. split; reflexivity.
  - rewrite <- (app_nil_r (if acc then _ else _)). exact (agree_app (lp:=[]) (agree_handlers c acc SCall name) A).
Qed.

Definition good (c : cfg) (n : node) : Prop := agree c (run c VSys n) (run c (global_of c) n) (events n).

Definition sim (c : cfg) (acc : bool) (p q : tfv * list logent) (evs : list (sevt * N)) : Prop :=
  rel c acc (fst p) (fst q) /\ agree c (snd p) (snd q) evs.

Lemma sim_cons c acc l lp evs p q evs' : agree c l lp evs -> sim c acc p q evs' ->
  sim c acc (let '(ft, l') := p in (ft, l ++ l')) (let '(fp, lp') := q in (fp, lp ++ lp')) (evs ++ evs').
Proof. destruct p, q. intros A [R A']. split; [exact R|exact (agree_app A A')]. Qed.

Lemma loop_good c acc name its : Forall (good c) its -> forall ft fp, rel c acc ft fp ->
  sim c acc (items_loop (run c VSys) c acc name its ft) (items_loop (run c (global_of c)) c acc name its fp)
    (events_loop events acc name its).
Proof.
  induction 1 as [|[t cs] its Hit _ IH]; intros ft fp R.
  - split; [exact R|split; reflexivity].
  - destruct t as [a nm| |]; cbn [items_loop events_loop].
    + apply sim_cons; [exact Hit|apply IH, R].
    + pose proof (event_step c acc name ft fp SLine R eq_refl) as S.
      destruct (call_v c ft SLine acc name) as [r l], (call_v c fp SLine acc name) as [rp lp]. destruct S as [R' A].
      apply sim_cons; [exact A|apply IH, R'].
    + pose proof (event_step c acc name ft fp SExc R eq_refl) as S.
      destruct (call_v c ft SExc acc name) as [r l], (call_v c fp SExc acc name) as [rp lp]. destruct S as [R' A].
      apply sim_cons; [exact A|apply IH, R'].
Qed.

Theorem all_good c : forall n, good c n.
Proof.
  intros n. induction n as [t cs IH] using node_ind2. destruct t as [acc name| |]; [|split; reflexivity|split; reflexivity].
  unfold good. cbn [run events].
  pose proof (call_step c acc name) as S0.
  destruct (call_v c VSys SCall acc name) as [ft0 l0], (call_v c (global_of c) SCall acc name) as [fp0 lp0]. destruct S0 as [R0 A0].
  pose proof (loop_good c acc name cs IH ft0 fp0 R0) as S1.
  destruct (items_loop (run c VSys) c acc name cs ft0) as [ft1 l1], (items_loop (run c (global_of c)) c acc name cs fp0) as [fp1 lp1].
  destruct S1 as [R1 A1]. cbn [fst snd] in R1, A1.
  pose proof (event_step c acc name ft1 fp1 SRet R1 eq_refl) as S2.
  destruct (call_v c ft1 SRet acc name) as [r l2], (call_v c fp1 SRet acc name) as [rp lp2]. destruct S2 as [_ A2].
  exact (agree_app A0 (agree_app A1 A2)).
Qed.
