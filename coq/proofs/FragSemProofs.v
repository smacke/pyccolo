(* Proofs about model/FragSem.v: the rewriter on typed terms preserves the semantics of every source program of the fragment and
   emits exactly the reference event stream filtered to the subscription (any primitive operations, any environment).
   The folds inside the expression evaluators (`chain`, `bool_fold`), sequencing (`run`, `seq`, `sim`) and the statement and module
   layer (`gstmt_sim`, `gmodule_sim`, about the twins `gexec` / `gref`) are stated for any expression layer (`layer`): FragSem's is
   `sem`, built on `eval_ie`, and proofs/FragOvProofs.v takes them at FragOv's. *)
From Coq Require Import List PeanoNat NArith Bool.
Import ListNotations.
From PyccoloV Require Import gen.Events model.Tree model.RwFrag model.FragSem.
From PyccoloV Require Import proofs.ListFacts proofs.FragLog.
Local Open Scope N_scope.

Fixpoint src_e (t : texpr) : bool :=
  match t with
  | XName _ _ | XConst _ _ => true
  | XBin _ l _ r => src_e l && src_e r
  (* one operator per comparator and at least one: ast.Compare's invariant, which `of_e` does not check *)
  | XCmp _ l ops comps => src_e l && forallb src_e comps && Nat.eqb (length ops) (length comps) && negb (Nat.eqb (length comps) 0)
  | XUn _ _ e => src_e e
  | XBool _ _ es => forallb src_e es
  | XIfE _ t a b => src_e t && src_e a && src_e b
  | _ => false
  end.

Section Ind.
Variable P : texpr -> Prop.
Hypothesis HName : forall n x, P (XName n x).
Hypothesis HConst : forall n c, P (XConst n c).
Hypothesis HBin : forall n l op r, P l -> P r -> P (XBin n l op r).
Hypothesis HCmp : forall n l ops comps, P l -> Forall P comps -> P (XCmp n l ops comps).
Hypothesis HUn : forall n op e, P e -> P (XUn n op e).
Hypothesis HBool : forall n op es, Forall P es -> P (XBool n op es).
Hypothesis HIfE : forall n t a b, P t -> P a -> P b -> P (XIfE n t a b).
Hypothesis HEmit : forall e n v, P v -> P (XEmit e n v).
Hypothesis HDefBin : forall n op l r, P l -> P r -> P (XDefBin n op l r).
Hypothesis HDefCmp : forall n ops l c0 crest, P l -> P c0 -> Forall P crest -> P (XDefCmp n ops l c0 crest).
Hypothesis HDefRhs : forall n v, P v -> P (XDefRhs n v).
Hypothesis HLoad : forall n, P (XLoadSaved n).
Hypothesis HThunk : P XThunkCall.
Fixpoint texpr_ind' (t : texpr) : P t :=
  let fix all (l : list texpr) : Forall P l := match l with [] => Forall_nil P | x :: l' => Forall_cons x (texpr_ind' x) (all l') end in
  match t with
  | XName n x => HName n x
  | XConst n c => HConst n c
  | XBin n l op r => HBin n l op r (texpr_ind' l) (texpr_ind' r)
  | XCmp n l ops comps => HCmp n l ops comps (texpr_ind' l) (all comps)
  | XUn n op e => HUn n op e (texpr_ind' e)
  | XBool n op es => HBool n op es (all es)
  | XIfE n t a b => HIfE n t a b (texpr_ind' t) (texpr_ind' a) (texpr_ind' b)
  | XEmit e n v => HEmit e n v (texpr_ind' v)
  | XDefBin n op l r => HDefBin n op l r (texpr_ind' l) (texpr_ind' r)
  | XDefCmp n ops l c0 crest => HDefCmp n ops l c0 crest (texpr_ind' l) (texpr_ind' c0) (all crest)
  | XDefRhs n v => HDefRhs n v (texpr_ind' v)
  | XLoadSaved n => HLoad n
  | XThunkCall => HThunk
  end.
End Ind.

Definition flr (c : rcfg) (p : res val * list entry) : res val * list entry := (fst p, filter_log c (snd p)).
Lemma fl_absorb c a b : filter_log c (filter_log c a ++ b) = filter_log c (a ++ b).
Proof. rewrite fl_app, fl_idem, <- fl_app. reflexivity. Qed.
(* closes (q, l) = flr c (q, l') and filter_log c l = filter_log c l', where l is put together from filtered pieces of l': the filter
   goes over `++`, so both sides are the filter of the same list *)
Ltac same :=
  unfold flr; cbn [fst snd s_log r_log]; rewrite <- ?fl_emitted, <- ?fl_app, ?fl_absorb, ?fl_idem; cbn [app emitted]; rewrite ?app_nil_r, <- ?app_assoc; reflexivity.

(* The comparison chain and the short-circuit fold inside `eval_e`, `ref_e` (and inside FragOv's `eval_o`, `ref_o`), as functions
   of their own over the evaluator of the operands, taken at a fixed environment. *)
Section Folds.
Variable cmpop : N -> val -> val -> res bool.
Variable truth : val -> bool.
Variable is_and : N -> bool.
Variable ev : texpr -> res val * list entry.

Fixpoint chain (vprev : val) (ops : list N) (comps : list texpr) {struct comps} : res val * list entry :=
  match ops, comps with
  | o :: ops', x :: comps' =>
      match ev x with
      | (Ok vc, lc) =>
          match cmpop o vprev vc with
          | Ok true => match comps' with [] => (Ok (VBool true), lc) | _ => let '(q, lq) := chain vc ops' comps' in (q, lc ++ lq) end
          | Ok false => (Ok (VBool false), lc)
          | Err e => (Err e, lc)
          end
      | (Err e, lc) => (Err e, lc)
      end
  | _, _ => (Ok (VBool true), [])
  end.

(* the reference's chain logs every comparator as compare_arg; `ov` is what the handler of that event makes of the value
   (nothing, in FragSem) *)
Variable ov : N -> val -> val.
Fixpoint chain_ref (vprev : val) (ops : list N) (comps : list texpr) {struct comps} : res val * list entry :=
  match ops, comps with
  | o :: ops', x :: comps' =>
      match ev x with
      | (Ok vc, lc) =>
          let lc' := lc ++ [(E_compare_arg, xid x, Some vc)] in
          let vc' := ov (xid x) vc in
          match cmpop o vprev vc' with
          | Ok true => match comps' with [] => (Ok (VBool true), lc') | _ => let '(q, lq) := chain_ref vc' ops' comps' in (q, lc' ++ lq) end
          | Ok false => (Ok (VBool false), lc')
          | Err e => (Err e, lc')
          end
      | (Err e, lc) => (Err e, lc)
      end
  | _, _ => (Ok (VBool true), [])
  end.

Definition bool_fold (op : N) := fix go (u : list texpr) {struct u} : res val * list entry :=
  match u with
  | [] => (Ok VNone, [])
  | [x] => ev x
  | x :: u' =>
      match ev x with
      | (Ok v, l) => if (if is_and op then negb (truth v) else truth v) then (Ok v, l) else let '(q, lq) := go u' in (q, l ++ lq)
      | (Err e, l) => (Err e, l)
      end
  end.
Lemma bool_fold_cons op x y u :
  bool_fold op (x :: y :: u) =
  match ev x with
  | (Ok v, l) => if (if is_and op then negb (truth v) else truth v) then (Ok v, l) else let '(q, lq) := bool_fold op (y :: u) in (q, l ++ lq)
  | (Err e, l) => (Err e, l)
  end.
Proof. reflexivity. Qed.
End Folds.

Section FoldsSim.
Variable cmpop : N -> val -> val -> res bool.
Variable truth : val -> bool.
Variable is_and : N -> bool.
Variable c : rcfg.
Variables ev rf : texpr -> res val * list entry.
Variable f : texpr -> texpr.

Lemma bool_sim op es : Forall (fun t => src_e t = true -> ev (f t) = flr c (rf t)) es -> forallb src_e es = true ->
  bool_fold truth is_and ev op (map f es) = flr c (bool_fold truth is_and rf op es).
Proof.
  induction 1 as [|x es Hx _ IH]; intros Hs; [reflexivity|].
  cbn [forallb] in Hs. apply andb_true_iff in Hs as [Hsx Hs].
  destruct es as [|y es]; [exact (Hx Hsx)|].
  specialize (IH Hs). cbn [map] in *. rewrite !bool_fold_cons, (Hx Hsx), IH.
  destruct (rf x) as [[v|e] l]; [|reflexivity]. unfold flr at 1. cbn [fst snd].
  destruct (if is_and op then negb (truth v) else truth v); [reflexivity|].
  destruct (bool_fold truth is_and rf op (y :: es)) as [q lq]. unfold flr. cbn [fst snd]. rewrite fl_app. reflexivity.
Qed.

Lemma chain_sim ov comps :
  Forall (fun x => src_e x = true ->
            ev (f x) = match rf x with
                       | (Ok vc, lc) => (Ok (ov (xid x) vc), filter_log c (lc ++ [(E_compare_arg, xid x, Some vc)]))
                       | (Err e, lc) => (Err e, filter_log c lc)
                       end) comps ->
  forallb src_e comps = true -> forall vprev ops,
  chain cmpop ev vprev ops (map f comps) = flr c (chain_ref cmpop rf ov vprev ops comps).
Proof.
  induction 1 as [|x comps Hx _ IH]; intros Hs vprev ops.
  - destruct ops; reflexivity.
  - cbn [forallb] in Hs. apply andb_true_iff in Hs as [Hsx Hs]. destruct ops as [|o ops]; [reflexivity|].
    cbn [map chain chain_ref]. rewrite (Hx Hsx). destruct (rf x) as [[vc|e] lc]; [|reflexivity]. cbv zeta.
    destruct (cmpop o vprev (ov (xid x) vc)) as [[|]|e]; try reflexivity.
    destruct comps as [|y comps]; [reflexivity|].
    cbn [map] in *. rewrite (IH Hs). destruct (chain_ref cmpop rf ov (ov (xid x) vc) ops (y :: comps)) as [q lq].
    unfold flr. cbn [fst snd]. rewrite (fl_app c (lc ++ _)). reflexivity.
Qed.
End FoldsSim.

Section Proofs.
Variable binop : N -> val -> val -> res val.
Variable cmpop : N -> val -> val -> res bool.
Variable unop : N -> val -> res val.
Variable truth : val -> bool.
Variable cval : scalar -> val.
Variable is_and : N -> bool.
Variable c : rcfg.

Notation eval_e := (eval_e binop cmpop unop truth cval is_and).
Notation ref_e := (ref_e binop cmpop unop truth cval is_and).
Notation fl := (filter_log c).

Lemma eval_wrap e n t r : eval_e (wrap c e n t) r = let '(q, l) := eval_e t r in (q, l ++ if sub c e then emitted e n q else []).
Proof. unfold wrap. destruct (sub c e); cbn [FragSem.eval_e]; destruct (eval_e t r) as [q l]; [reflexivity|rewrite app_nil_r; reflexivity]. Qed.

Lemma eval_XCmp n l ops comps r :
  eval_e (XCmp n l ops comps) r =
  match eval_e l r with
  | (Ok vl, ll) => let '(q, lq) := chain cmpop (fun x => eval_e x r) vl ops comps in (q, ll ++ lq)
  | (Err e, ll) => (Err e, ll)
  end.
Proof. exact eq_refl. Qed.
Lemma ref_XCmp n l ops comps r :
  ref_e (XCmp n l ops comps) r =
  match ref_e l r with
  | (Ok vl, ll) => let '(q, lq) := chain_ref cmpop (fun x => ref_e x r) (fun _ v => v) vl ops comps in
                   (q, (E_before_compare, n, None) :: ll ++ [(E_left_compare_arg, xid l, Some vl)] ++ lq ++ emitted E_after_compare n q)
  | (Err e, ll) => (Err e, (E_before_compare, n, None) :: ll)
  end.
Proof. exact eq_refl. Qed.

Lemma eval_bin_both n op l r0 r :
  eval_e (if sub c E_before_binop then XDefBin n op l r0 else XBin n l op r0) r =
  let '(q, lg) := eval_e (XBin n l op r0) r in (q, fl [(E_before_binop, n, None)] ++ lg).
Proof.
  rewrite fl_single. destruct (sub c E_before_binop); cbn [FragSem.eval_e]; destruct (eval_e l r) as [[vl|e] ll]; try reflexivity;
  destruct (eval_e r0 r) as [[vr|e] lr]; reflexivity.
Qed.

Lemma eval_cmp_both n o ops l c0 crest r :
  eval_e (if sub c E_before_compare then XDefCmp n (o :: ops) l c0 crest else XCmp n l (o :: ops) (c0 :: crest)) r =
  let '(q, lg) := eval_e (XCmp n l (o :: ops) (c0 :: crest)) r in (q, fl [(E_before_compare, n, None)] ++ lg).
Proof.
  rewrite fl_single. destruct (sub c E_before_compare); [|destruct (eval_e (XCmp n l (o :: ops) (c0 :: crest)) r); reflexivity].
  rewrite eval_XCmp. cbn [FragSem.eval_e chain]. fold (chain cmpop (fun x => eval_e x r)).
  destruct (eval_e l r) as [[vl|e] ll]; [|reflexivity].
  destruct (eval_e c0 r) as [[v0|e] l0]; [|reflexivity].
  destruct (cmpop o vl v0) as [[|]|e]; try reflexivity.
  destruct crest as [|c1 crest]; [reflexivity|].
  destruct (chain cmpop (fun x => eval_e x r) v0 ops (c1 :: crest)) as [q lq]. reflexivity.
Qed.

Lemma eval_arg e t r : eval_e (ie c t) r = flr c (ref_e t r) ->
  eval_e (wrap c e (xid t) (ie c t)) r =
  match ref_e t r with
  | (Ok v, l) => (Ok v, fl (l ++ [(e, xid t, Some v)]))
  | (Err z, l) => (Err z, fl l)
  end.
Proof.
  intros H. rewrite eval_wrap, H. destruct (ref_e t r) as [[v|z] l]; unfold flr; cbn [fst snd emitted].
  - rewrite fl_app, fl_single. reflexivity.
  - destruct (sub c e); rewrite app_nil_r; reflexivity.
Qed.

Theorem eval_ie : forall t, src_e t = true -> forall r,
  eval_e (ie c t) r = (fst (ref_e t r), filter_log c (snd (ref_e t r))).
Proof.
  induction t using texpr_ind'; intros Hs r; try discriminate Hs.
  - cbn [ie]. rewrite eval_wrap. cbn [FragSem.eval_e FragSem.ref_e]. destruct (r x) as [v|]; same.
  - cbn [ie FragSem.ref_e]. destruct (const_ev c0) as [ev|]; [rewrite eval_wrap|]; cbn [FragSem.eval_e]; same.
  - cbn [src_e] in Hs. apply andb_true_iff in Hs as [H1 H2].
    cbn [ie]. rewrite eval_wrap, eval_bin_both. cbn [FragSem.eval_e FragSem.ref_e].
    rewrite (eval_arg _ _ r (IHt1 H1 r)), (eval_arg _ _ r (IHt2 H2 r)).
    destruct (ref_e t1 r) as [[vl|e] ll]; [|same].
    destruct (ref_e t2 r) as [[vr|e] lr]; same.
  - cbn [src_e] in Hs. apply andb_true_iff in Hs as [Hs Hne]. apply andb_true_iff in Hs as [Hs Hlen]. apply andb_true_iff in Hs as [H1 Hc].
    apply Nat.eqb_eq in Hlen.
    destruct comps as [|c0 crest]; [discriminate Hne|]. destruct ops as [|o ops]; [discriminate Hlen|].
    cbn [ie map]. rewrite eval_wrap.
    set (f := fun x => wrap c E_compare_arg (xid x) (ie c x)).
    rewrite (eval_cmp_both n o ops _ (f c0) (map f crest) r).
    change (f c0 :: map f crest) with (map f (c0 :: crest)).
    rewrite eval_XCmp, ref_XCmp, (eval_arg _ _ r (IHt H1 r)).
    destruct (ref_e t r) as [[vl|e] ll]; cbn [fst snd]; [|same].
    rewrite (chain_sim cmpop c (fun x => eval_e x r) (fun x => ref_e x r) f (fun _ v => v) (c0 :: crest)); [| |exact Hc].
    + destruct (chain_ref cmpop (fun x => ref_e x r) (fun _ v => v) vl (o :: ops) (c0 :: crest)) as [q lq]. same.
    + revert H. apply Forall_impl. intros x Hx Hsx. exact (eval_arg _ x r (Hx Hsx r)).
  - cbn [src_e] in Hs. cbn [ie FragSem.eval_e FragSem.ref_e]. rewrite (IHt Hs). destruct (ref_e t r) as [[v|e] l]; reflexivity.
  - cbn [src_e] in Hs. cbn [ie].
    apply (bool_sim truth is_and c (fun x => eval_e x r) (fun x => ref_e x r) (ie c)); [|exact Hs].
    revert H. apply Forall_impl. intros x Hx Hsx. exact (Hx Hsx r).
  - cbn [src_e] in Hs. apply andb_true_iff in Hs as [Hs H3]. apply andb_true_iff in Hs as [H1 H2].
    cbn [ie FragSem.eval_e FragSem.ref_e]. rewrite (IHt1 H1). destruct (ref_e t1 r) as [[vc|e] lc]; cbn [fst snd]; [|reflexivity].
    destruct (truth vc); [rewrite (IHt2 H2); destruct (ref_e t2 r)|rewrite (IHt3 H3); destruct (ref_e t3 r)]; cbn [fst snd]; rewrite fl_app; reflexivity.
Qed.
End Proofs.

Fixpoint src_s (s : tstmt) : bool :=
  match s with
  | SExpr _ v | SAssign _ _ v => src_e v
  | SPass _ => true
  | SIf _ t b o => src_e t && forallb src_s b && forallb src_s o
  | _ => false
  end.

Section IndS.
Variable P : tstmt -> Prop.
Hypothesis HExpr : forall n v, P (SExpr n v).
Hypothesis HAssign : forall n xs v, P (SAssign n xs v).
Hypothesis HPass : forall n, P (SPass n).
Hypothesis HIf : forall n t b o, Forall P b -> Forall P o -> P (SIf n t b o).
Hypothesis HEmit : forall e n v, P (SEmit e n v).
Hypothesis HBefore : forall n tb own, Forall P tb -> Forall P own -> P (SBefore n tb own).
Fixpoint tstmt_ind' (s : tstmt) : P s :=
  let fix all (l : list tstmt) : Forall P l := match l with [] => Forall_nil P | x :: l' => Forall_cons x (tstmt_ind' x) (all l') end in
  match s with
  | SExpr n v => HExpr n v
  | SAssign n xs v => HAssign n xs v
  | SPass n => HPass n
  | SIf n t b o => HIf n t b o (all b) (all o)
  | SEmit e n v => HEmit e n v
  | SBefore n tb own => HBefore n tb own (all tb) (all own)
  end.
End IndS.

(* `exec_l` is `run exec_s` and `ref_l m` is `rrun (ref_s m)` by conversion, and likewise FragOv's `exec_ol`, `ref_ol`: what is
   proved of `run ex` and `rrun rs` holds of both. *)
Definition pre (p : list entry) (a : sres) : sres :=
  {| s_exc := s_exc a; s_env := s_env a; s_saved := s_saved a; s_log := p ++ s_log a |}.
Definition seq (a : sres) (k : env -> val -> sres) : sres :=
  match s_exc a with Some _ => a | None => pre (s_log a) (k (s_env a) (s_saved a)) end.
Definition run (ex : tstmt -> env -> val -> sres) := fix run (u : list tstmt) (r : env) (saved : val) {struct u} : sres :=
  match u with
  | [] => {| s_exc := None; s_env := r; s_saved := saved; s_log := [] |}
  | x :: u' =>
      let a := ex x r saved in
      match s_exc a with
      | Some _ => a
      | None => let b := run u' (s_env a) (s_saved a) in
                {| s_exc := s_exc b; s_env := s_env b; s_saved := s_saved b; s_log := s_log a ++ s_log b |}
      end
  end.

Definition rpre (p : list entry) (b : rres) : rres := {| r_exc := r_exc b; r_env := r_env b; r_log := p ++ r_log b |}.
Definition rseq (b : rres) (k : env -> rres) : rres :=
  match r_exc b with Some _ => b | None => rpre (r_log b) (k (r_env b)) end.
Definition rrun (rs : tstmt -> env -> rres) := fix ref_l (u : list tstmt) (r : env) {struct u} : rres :=
  match u with
  | [] => {| r_exc := None; r_env := r; r_log := [] |}
  | x :: u' =>
      let a := rs x r in
      match r_exc a with
      | Some _ => a
      | None => let b := ref_l u' (r_env a) in {| r_exc := r_exc b; r_env := r_env b; r_log := r_log a ++ r_log b |}
      end
  end.

Lemma run_cons ex x u r sv : run ex (x :: u) r sv = seq (ex x r sv) (run ex u).
Proof. reflexivity. Qed.
Lemma rrun_cons rs x u r : rrun rs (x :: u) r = rseq (rs x r) (rrun rs u).
Proof. reflexivity. Qed.
Lemma seq_skip r sv k : seq {| s_exc := None; s_env := r; s_saved := sv; s_log := [] |} k = k r sv.
Proof. unfold seq, pre. cbn. destruct (k r sv); reflexivity. Qed.
Lemma run_single ex x r sv : run ex [x] r sv = ex x r sv.
Proof. rewrite run_cons. unfold seq, pre. cbn. destruct (ex x r sv) as [[e|] r' sv' l]; cbn; rewrite ?app_nil_r; reflexivity. Qed.
Lemma run_app ex u w : forall r sv, run ex (u ++ w) r sv = seq (run ex u r sv) (run ex w).
Proof.
  induction u as [|x u IH]; intros r sv; [symmetry; apply seq_skip|].
  cbn [app]. rewrite !run_cons. unfold seq at 1 3. destruct (s_exc (ex x r sv)) eqn:E.
  - unfold seq. rewrite E. reflexivity.
  - rewrite IH. unfold seq, pre. cbn [s_exc s_env s_saved s_log].
    destruct (s_exc (run ex u (s_env (ex x r sv)) (s_saved (ex x r sv)))) eqn:E2; cbn [s_exc s_env s_saved s_log]; rewrite ?E2; [reflexivity|].
    rewrite app_assoc. reflexivity.
Qed.

(* what `ref_s` (and FragOv's `ref_os`) puts around the statement proper *)
Definition finish (m : bool) (n : N) (body : option exc * env * list entry * val) : rres :=
  let '(x, r', l, v) := body in
  let after_value := if m then v else VNone in
  {| r_exc := x; r_env := r';
     r_log := (E_before_stmt, n, Some VNone) :: l ++
              match x with
              | Some _ => []
              | None => (E_after_stmt, n, Some after_value) :: (if m then [(E_after_module_stmt, n, Some after_value)] else [])
              end |}.
(* and what `ref_module0` (and `ref_omodule`) puts around the body *)
Definition module_res (a : rres) : rres :=
  {| r_exc := r_exc a; r_env := r_env a;
     r_log := (E_init_module, 0, Some VNone) :: r_log a ++ match r_exc a with None => [(E_exit_module, 0, Some VNone)] | Some _ => [] end |}.

Definition sid (s : tstmt) : N := match s with SExpr n _ | SAssign n _ _ | SPass n | SIf n _ _ _ | SEmit _ n _ | SBefore n _ _ => n end.
Definition is_expr (s : tstmt) : bool := match s with SExpr _ _ => true | _ => false end.
Definition after_of (x : option exc) (n : N) (av : val) : list entry := match x with None => [(E_after_stmt, n, Some av)] | Some _ => [] end.

Lemma trest_src body : forallb src_s body = true -> forallb src_s (trest body) = true.
Proof.
  destruct body as [|d rest]; [reflexivity|]. unfold trest. destruct (is_doc_t d); [|auto].
  cbn [forallb]. intros H. now apply andb_true_iff in H as [_ H].
Qed.
Lemma tdoc_trest body : tdoc body ++ trest body = body.
Proof. destruct body as [|d rest]; [reflexivity|]. unfold tdoc, trest. now destruct (is_doc_t d). Qed.

(* Twins.  The model's evaluators and rewriters are fixpoints that bind their pieces by `let` and use each several times.  An
   equation `f (C args) = …` obtained by computing on such a fixpoint, at a constructor that carries lists of statements, makes the
   kernel compare the whole inlined fixpoint with its name once per copy of a `let`-bound piece: slow to check.  A twin is the
   same body cut into definitions that take the recursive call as a parameter.  `…_fix : model = twin` is one conversion of fix
   against fix; the unfolding equations (`lex_eq`, `lrs_eq` here; `…_unfold`, `…_eq` in the other files) are read off the twin.
   To unfold the model's function on a compound statement, rewrite with those equations; do not `cbn`, `change` or
   `reflexivity` it there.  At a constructor without statement lists computing on the model is fine.
   `gexec` is the twin of `exec_s` and of FragOv's `exec_os`, with the expression evaluator as a parameter; `gref` below that of
   `ref_s` and `ref_os`, with the reference evaluator and what the handlers do to values as parameters. *)
Section Twins.
Variable truth : val -> bool.
Variable ev : texpr -> env -> res val * list entry.

Definition exec_body (rec : list tstmt -> env -> val -> sres) (s : tstmt) (r : env) (saved : val) : sres :=
  match s with
  | SExpr _ v => let '(q, l) := ev v r in
                 {| s_exc := match q with Ok _ => None | Err e => Some e end; s_env := r; s_saved := saved; s_log := l |}
  | SAssign _ xs v =>
      let '(q, l) := ev v r in
      match q with
      | Ok x => {| s_exc := None; s_env := fold_left (fun r' y => upd r' y x) xs r; s_saved := saved; s_log := l |}
      | Err e => {| s_exc := Some e; s_env := r; s_saved := saved; s_log := l |}
      end
  | SPass _ => {| s_exc := None; s_env := r; s_saved := saved; s_log := [] |}
  | SIf _ t b o =>
      let '(q, l) := ev t r in
      match q with
      | Ok vt => pre l (rec (if truth vt then b else o) r saved)
      | Err e => {| s_exc := Some e; s_env := r; s_saved := saved; s_log := l |}
      end
  | SEmit e n None =>
      {| s_exc := None; s_env := r; s_saved := (if event_eqb e E_after_stmt then VNone else saved); s_log := [(e, n, Some VNone)] |}
  | SEmit e n (Some (XLoadSaved _)) =>
      {| s_exc := None; s_env := r; s_saved := VNone; s_log := [(e, n, Some saved)] |}
  | SEmit e n (Some v) =>
      let '(q, l) := ev v r in
      match q with
      | Ok x => {| s_exc := None; s_env := r; s_saved := (if event_eqb e E_after_stmt then x else saved); s_log := l ++ [(e, n, Some x)] |}
      | Err x => {| s_exc := Some x; s_env := r; s_saved := saved; s_log := l |}
      end
  | SBefore n _ own => pre [(E_before_stmt, n, Some VNone)] (rec own r saved)
  end.
Fixpoint gexec (s : tstmt) (r : env) (saved : val) {struct s} : sres := exec_body (run gexec) s r saved.
Lemma exec_body_value rec e n v r sv : (forall k, v <> XLoadSaved k) ->
  exec_body rec (SEmit e n (Some v)) r sv =
  let '(q, l) := ev v r in
  match q with
  | Ok x => {| s_exc := None; s_env := r; s_saved := (if event_eqb e E_after_stmt then x else sv); s_log := l ++ [(e, n, Some x)] |}
  | Err x => {| s_exc := Some x; s_env := r; s_saved := sv; s_log := l |}
  end.
Proof. intros H. destruct v; try reflexivity. exfalso. exact (H n0 eq_refl). Qed.

(* the reference: `ovr` / `ov` is what the handler of a value event makes of a result / a value, `od` what the handler of a deferred
   event hands back (FragSem: the identity, the identity, None) *)
Variable rf : texpr -> env -> res val * list entry.
Variable ovr : event -> N -> res val -> res val.
Variable ov : event -> N -> val -> val.
Variable od : event -> N -> option val.

Definition ref_body (rec : list tstmt -> env -> rres) (n : N) (s : tstmt) (r : env) : option exc * env * list entry * val :=
  match s with
  | SExpr _ v => let '(q, l) := rf v r in
                 let q' := ovr E_after_expr_stmt n q in
                 (match q with Ok _ => None | Err e => Some e end, r, l ++ emitted E_after_expr_stmt n q, match q' with Ok x => x | Err _ => VNone end)
  | SAssign _ xs v =>
      match od E_before_assign_rhs (xid v) with
      | Some y =>
          let x := ov E_after_assign_rhs (xid v) y in
          (None, fold_left (fun r' z => upd r' z x) xs r, [(E_before_assign_rhs, xid v, None); (E_after_assign_rhs, xid v, Some y)], VNone)
      | None =>
          let '(q, l) := rf v r in
          let q' := ovr E_after_assign_rhs (xid v) q in
          (match q with Ok _ => None | Err e => Some e end,
           match q' with Ok x => fold_left (fun r' y => upd r' y x) xs r | Err _ => r end,
           (E_before_assign_rhs, xid v, None) :: l ++ emitted E_after_assign_rhs (xid v) q, VNone)
      end
  | SPass _ => (None, r, [], VNone)
  | SIf _ t b o =>
      let '(q, l) := rf t r in
      match q with
      | Ok vt => let a := rec (if truth (ov E_after_if_test n vt) then b else o) r in (r_exc a, r_env a, l ++ (E_after_if_test, n, Some vt) :: r_log a, VNone)
      | Err e => (Some e, r, l, VNone)
      end
  | _ => (Some ETypeError, r, [], VNone)
  end.
Fixpoint gref (m : bool) (s : tstmt) (r : env) {struct s} : rres := finish m (sid s) (ref_body (rrun (gref false)) (sid s) s r).
Lemma ref_body_value rec n s r : is_expr s = false -> snd (ref_body rec n s r) = VNone.
Proof.
  destruct s; try discriminate; intros _; cbn [ref_body]; try reflexivity.
  - destruct (od E_before_assign_rhs (xid v)); [|destruct (rf v r)]; reflexivity.
  - destruct (rf t r) as [[vt|e] l]; reflexivity.
Qed.
End Twins.

Section ProofsS.
Variable binop : N -> val -> val -> res val.
Variable cmpop : N -> val -> val -> res bool.
Variable unop : N -> val -> res val.
Variable truth : val -> bool.
Variable cval : scalar -> val.
Variable is_and : N -> bool.
Variable c : rcfg.

Notation eval_e := (eval_e binop cmpop unop truth cval is_and).
Notation ref_e := (ref_e binop cmpop unop truth cval is_and).
Notation exec_s := (exec_s binop cmpop unop truth cval is_and).
Notation exec_l := (exec_l binop cmpop unop truth cval is_and).
Notation ref_s := (ref_s binop cmpop unop truth cval is_and).
Notation ref_l := (ref_l binop cmpop unop truth cval is_and).
Notation ref_module := (ref_module binop cmpop unop truth cval is_and).
Notation fl := (filter_log c).

(* The pieces of `is_ c m s`, named; `is_unfold` is its only equation.  `XThunkCall` in `mvalue` is a dummy: only the value of an
   expression statement is used. *)
Definition main_of (s : tstmt) : tstmt :=
  match s with
  | SExpr n v => SExpr n (wrap c E_after_expr_stmt n (ie c v))
  | SAssign n xs v =>
      let v1 := ie c v in
      let v2 := if sub c E_before_assign_rhs then XDefRhs (xid v) v1 else v1 in
      SAssign n xs (wrap c E_after_assign_rhs (xid v) v2)
  | SIf n t b o => SIf n (wrap c E_after_if_test n (ie c t)) (flat_map (is_ c false) b) (flat_map (is_ c false) o)
  | other => other
  end.
Definition mvalue (s : tstmt) : texpr := match main_of s with SExpr _ v => v | _ => XThunkCall end.
Definition wants (m : bool) : bool := sub c E_after_stmt || (sub c E_after_module_stmt && m).
Definition own_of (m : bool) (s : tstmt) : list tstmt := main_and_after (wants m) m (sid s) (main_of s) (is_expr s) (mvalue s).

Lemma is_unfold m s : is_ c m s =
  let expanded := if sub c E_before_stmt
                  then [SBefore (sid s) (main_and_after (wants m) m (sid s) (SExpr 0 XThunkCall) true XThunkCall) (own_of m s)]
                  else own_of m s in
  if m && sub c E_after_module_stmt then expanded ++ [SEmit E_after_module_stmt (sid s) (Some (XLoadSaved (sid s)))] else expanded.
Proof. destruct s; exact eq_refl. Qed.

Lemma wrap_not_load e n t k : t <> XLoadSaved k -> wrap c e n t <> XLoadSaved k.
Proof. intros H. unfold wrap. destruct (sub c e); [discriminate|exact H]. Qed.
Lemma ie_not_load v : src_e v = true -> forall e n k, wrap c e n (ie c v) <> XLoadSaved k.
Proof.
  intros Hs e n k. apply wrap_not_load. destruct v; try discriminate Hs; cbn [ie]; try discriminate; try apply wrap_not_load; try discriminate.
  - destruct (const_ev c0); [apply wrap_not_load|]; discriminate.
  - destruct (sub c E_before_binop); discriminate.
  - destruct (sub c E_before_compare); [destruct (map _ comps)|]; discriminate.
Qed.

Definition sim (a : sres) (b : rres) : Prop :=
  s_exc a = r_exc b /\ s_env a = r_env b /\ filter_log c (s_log a) = filter_log c (r_log b).

Lemma sim_pre p p' a b : fl p = fl p' -> sim a b -> sim (pre p a) (rpre p' b).
Proof. intros Hp (E1 & E2 & E3). split; [exact E1|split; [exact E2|]]. exact (fl_pre c _ _ _ _ Hp E3). Qed.
Lemma sim_seq a b k k' : sim a b -> (forall sv, sim (k (r_env b) sv) (k' (r_env b))) -> sim (seq a k) (rseq b k').
Proof.
  intros H Hk. pose proof H as (E1 & E2 & E3). unfold seq, rseq. rewrite E1, E2.
  destruct (r_exc b); [exact H|]. exact (sim_pre _ _ _ _ E3 (Hk _)).
Qed.

(* An expression layer, as the statements use it: `l_ev` evaluates the instrumented expression to what `l_rf` gives for the source,
   with the log filtered and the handlers of the emitted events applied (`l_ovr`, `l_ov`, `l_od` are `gref`'s `ovr`, `ov`, `od`).  FragSem's and FragOv's
   evaluators are two such layers, and the rest of this section up to `gmodule_sim` holds for any. *)
Record layer : Type := {
  l_ev : texpr -> env -> res val * list entry;
  l_rf : texpr -> env -> res val * list entry;
  l_ovr : event -> N -> res val -> res val;
  l_ov : event -> N -> val -> val;
  l_od : event -> N -> option val;
  ev_wrap : forall e n t r, l_ev (wrap c e n t) r = let '(q, l) := l_ev t r in (l_ovr e n q, l ++ if sub c e then emitted e n q else []);
  ev_ie : forall t, src_e t = true -> forall r, l_ev (ie c t) r = flr c (l_rf t r);
  ev_rhs : forall n v r, l_ev (if sub c E_before_assign_rhs then XDefRhs n v else v) r =
             match l_od E_before_assign_rhs n with
             | Some y => (Ok y, fl [(E_before_assign_rhs, n, None)])
             | None => let '(q, l) := l_ev v r in (q, fl [(E_before_assign_rhs, n, None)] ++ l)
             end;
  ev_const : forall n sc r, exists x, l_ev (XConst n sc) r = (Ok x, []);      (* for the docstring (`doc_run`) only *)
  ovr_ok : forall e n x, l_ovr e n (Ok x) = Ok (l_ov e n x);
  ovr_err : forall e n z, l_ovr e n (Err z) = Err z }.
Definition lex (L : layer) : tstmt -> env -> val -> sres := gexec truth (l_ev L).
Definition lrs (L : layer) : bool -> tstmt -> env -> rres := gref truth (l_rf L) (l_ovr L) (l_ov L) (l_od L).
Definition lbody (L : layer) (s : tstmt) (r : env) : option exc * env * list entry * val :=
  ref_body truth (l_rf L) (l_ovr L) (l_ov L) (l_od L) (rrun (lrs L false)) (sid s) s r.
Lemma lex_eq L s r sv : lex L s r sv = exec_body truth (l_ev L) (run (lex L)) s r sv.
Proof. destruct s; reflexivity. Qed.
Lemma lrs_eq L m s r : lrs L m s r = finish m (sid s) (lbody L s r).
Proof. destruct s; reflexivity. Qed.

Definition sim_stmt L (s : tstmt) : Prop := src_s s = true -> forall m r sv, sim (run (lex L) (is_ c m s) r sv) (lrs L m s r).

Lemma list_sim L u : Forall (sim_stmt L) u -> forallb src_s u = true ->
  forall m r sv, sim (run (lex L) (flat_map (is_ c m) u) r sv) (rrun (lrs L m) u r).
Proof.
  induction 1 as [|x u Hx _ IH]; intros Hs m r sv; [repeat split|].
  cbn [forallb] in Hs. apply andb_true_iff in Hs as [Hsx Hs].
  cbn [flat_map]. rewrite run_app, rrun_cons. apply sim_seq; [exact (Hx Hsx m r sv)|]. intros sv'. exact (IH Hs m _ sv').
Qed.

Lemma emit_sim L e n r sv :
  sim (run (lex L) (if sub c e then [SEmit e n None] else []) r sv) {| r_exc := None; r_env := r; r_log := [(e, n, Some VNone)] |}.
Proof.
  destruct (sub c e) eqn:Se; [rewrite run_single|]; repeat split.
  cbn [run s_log r_log]. rewrite fl_single, Se. reflexivity.
Qed.

(* One statement.  `O` is the run of the statement's own part (`own_of`): it ends as the statement proper does (x, r', l), has
   the after_stmt event in its log and, if that event is emitted, its value `av` as the saved value.  An abbreviation for the
   statements of `own_run` / `assemble_run`, meant to be destructed. *)
Definition settles (O : sres) (x : option exc) (r' : env) (l : list entry) (n : N) (av : val) (w : bool) : Prop :=
  sim O {| r_exc := x; r_env := r'; r_log := l ++ after_of x n av |} /\ (w = true -> x = None -> s_saved O = av).

Lemma own_run L s m r sv x r' l v :
  sim (lex L (main_of s) r sv) {| r_exc := x; r_env := r'; r_log := l |} ->
  (is_expr s = false -> v = VNone) ->
  (is_expr s = true -> settles (lex L (SEmit E_after_stmt (sid s) (Some (mvalue s))) r sv) x r' l (sid s) v true) ->
  settles (run (lex L) (own_of m s) r sv) x r' l (sid s) (if m then v else VNone) (wants m).
Proof.
  intros (A1 & A2 & A3) Hv Hex. cbn [r_exc r_env r_log] in A1, A2, A3. unfold own_of, main_and_after. destruct (wants m) eqn:W.
  - destruct (is_expr s && m) eqn:EM.
    + (* module-level expression statement: the after_stmt emission carries the value *)
      apply andb_true_iff in EM as [Ee ->]. rewrite run_single. exact (Hex Ee).
    + (* the statement, then a plain after_stmt emission *)
      replace (if m then v else VNone) with VNone by (destruct m; [rewrite andb_true_r in EM; rewrite (Hv EM)|]; reflexivity).
      rewrite run_cons. unfold seq. rewrite A1. destruct x as [e|].
      * repeat split; try assumption; [|discriminate]. cbn [r_log after_of]. rewrite A3, app_nil_r. reflexivity.
      * rewrite run_single. repeat split; try assumption. exact (fl_pre c _ _ _ _ A3 eq_refl).
  - apply orb_false_iff in W as [Wa _]. rewrite run_single.
    repeat split; try assumption; [|discriminate].
    cbn [r_log]. rewrite fl_app, A3. destruct x; cbn [after_of]; [rewrite fl_nil|rewrite fl_single, Wa]; rewrite app_nil_r; reflexivity.
Qed.

Lemma assemble_run L s m r sv x r' l v :
  settles (run (lex L) (own_of m s) r sv) x r' l (sid s) (if m then v else VNone) (wants m) ->
  sim (run (lex L) (is_ c m s) r sv) (finish m (sid s) (x, r', l, v)).
Proof.
  intros ((O1 & O2 & O3) & O4). cbn [r_exc r_env r_log] in O1, O2, O3. rewrite is_unfold. cbv zeta.
  set (av := if m then v else VNone) in *.
  set (own := own_of m s) in *.
  set (expanded := if sub c E_before_stmt then [SBefore (sid s) _ own] else own).
  assert (HE : s_exc (run (lex L) expanded r sv) = x /\ s_env (run (lex L) expanded r sv) = r' /\
               s_saved (run (lex L) expanded r sv) = s_saved (run (lex L) own r sv) /\
               fl (s_log (run (lex L) expanded r sv)) = fl ((E_before_stmt, sid s, Some VNone) :: l ++ after_of x (sid s) av)).
  { subst expanded. destruct (sub c E_before_stmt) eqn:Bf.
    - rewrite run_single, lex_eq. cbn [exec_body pre s_exc s_env s_saved s_log]. repeat split; try assumption.
      exact (fl_pre c [_] [_] _ _ eq_refl O3).
    - repeat split; try assumption. rewrite fl_cons, Bf. exact O3. }
  destruct HE as (E1 & E2 & E3 & E4).
  destruct (m && sub c E_after_module_stmt) eqn:Am.
  - apply andb_true_iff in Am as [Em Ea]. subst m.
    assert (W : wants true = true) by (unfold wants; rewrite Ea, orb_true_r; reflexivity).
    rewrite run_app. unfold seq. rewrite E1. destruct x as [e|].
    + repeat split; assumption.
    + rewrite run_single. repeat split; try assumption.
      cbn [pre s_log finish r_log]. rewrite E3, (O4 W eq_refl).
      rewrite fl_app, E4, <- fl_app. cbn [after_of app]. rewrite <- app_assoc. reflexivity.
  - repeat split; try assumption. cbn [finish r_log]. rewrite E4.
    destruct x as [e|]; [reflexivity|].
    apply (fl_pre c [_] [_] _ _ eq_refl), (fl_pre c l l _ _ eq_refl), (fl_pre c [_] [_] [] _ eq_refl).
    destruct m; [|reflexivity]. cbn [andb] in Am. rewrite fl_single, Am. reflexivity.
Qed.

Definition gmain_ok L (s : tstmt) : Prop := forall r sv,
  let '(x, r', l, v) := lbody L s r in sim (lex L (main_of s) r sv) {| r_exc := x; r_env := r'; r_log := l |}.

Lemma gmain_expr L n v : src_e v = true -> gmain_ok L (SExpr n v).
Proof.
  intros Hs r sv. cbn [main_of lbody sid ref_body]. rewrite lex_eq. cbn [exec_body]. rewrite (ev_wrap L), (ev_ie L v Hs).
  destruct (l_rf L v r) as [[x|e] l]; cbn [flr fst snd]; rewrite ?(ovr_ok L), ?(ovr_err L); repeat split; same.
Qed.

Lemma gmain_assign L n xs v : src_e v = true -> gmain_ok L (SAssign n xs v).
Proof.
  intros Hs r sv. cbn [main_of lbody sid ref_body]. rewrite lex_eq. cbn [exec_body]. rewrite (ev_wrap L), (ev_rhs L).
  destruct (l_od L E_before_assign_rhs (xid v)) as [y|].
  - rewrite (ovr_ok L). repeat split. same.
  - rewrite (ev_ie L v Hs). destruct (l_rf L v r) as [[x|e] l]; cbn [flr fst snd]; rewrite ?(ovr_ok L), ?(ovr_err L); repeat split; same.
Qed.

Lemma gmain_if L n t b o : src_e t = true -> forallb src_s b = true -> forallb src_s o = true ->
  Forall (sim_stmt L) b -> Forall (sim_stmt L) o -> gmain_ok L (SIf n t b o).
Proof.
  intros Ht Hb Ho Fb Fo r sv. cbn [main_of lbody sid ref_body]. rewrite lex_eq. cbn [exec_body]. rewrite (ev_wrap L), (ev_ie L t Ht).
  destruct (l_rf L t r) as [[vt|e] l]; cbn [flr fst snd]; rewrite ?(ovr_ok L), ?(ovr_err L); [|repeat split; same].
  set (vt' := l_ov L E_after_if_test n vt).
  assert (Hl : sim (run (lex L) (if truth vt' then flat_map (is_ c false) b else flat_map (is_ c false) o) r sv)
                   (rrun (lrs L false) (if truth vt' then b else o) r))
    by (destruct (truth vt'); [exact (list_sim L b Fb Hb false r sv)|exact (list_sim L o Fo Ho false r sv)]).
  destruct Hl as (E1 & E2 & E3). repeat split; [exact E1|exact E2|].
  cbn [pre s_log r_log]. rewrite <- fl_emitted, <- fl_app, fl_absorb, <- app_assoc. cbn [emitted app]. rewrite !fl_app, !fl_cons, E3. reflexivity.
Qed.

Lemma gassemble L s : gmain_ok L s -> sim_stmt L s.
Proof.
  intros HM Hs m r sv. rewrite lrs_eq. specialize (HM r sv).
  pose proof (ref_body_value truth (l_rf L) (l_ovr L) (l_ov L) (l_od L) (rrun (lrs L false)) (sid s) s r) as Hv. fold (lbody L s r) in Hv.
  destruct (lbody L s r) as [[[x r'] l] v] eqn:Eb.
  apply assemble_run, own_run; [exact HM|exact Hv|].
  (* a module-level expression statement: the emission of after_stmt evaluates it *)
  intros Ee. destruct s; try discriminate Ee. cbn [src_s] in Hs.
  cbn [mvalue main_of sid lbody ref_body] in *.
  rewrite lex_eq, (exec_body_value _ _ _ _ _ _ _ _ (ie_not_load v0 Hs _ _)), (ev_wrap L), (ev_ie L v0 Hs).
  destruct (l_rf L v0 r) as [[y|e] l0]; cbn [flr fst snd]; rewrite ?(ovr_ok L), ?(ovr_err L) in *; injection Eb as <- <- <- <-; unfold settles, sim;
    cbn [after_of s_exc s_env s_log s_saved r_exc r_env r_log];
    (split; [repeat split; same|intros _ H; try discriminate H; reflexivity]).
Qed.

Theorem gstmt_sim L : forall s, sim_stmt L s.
Proof.
  induction s using tstmt_ind'; intros Hs; try discriminate Hs; refine (gassemble L _ _ Hs); cbn [src_s] in Hs.
  - apply gmain_expr; exact Hs.
  - apply gmain_assign; exact Hs.
  - intros r sv. repeat split.
  - apply andb_true_iff in Hs as [Hs Ho]. apply andb_true_iff in Hs as [Ht Hb]. apply gmain_if; assumption.
Qed.

(* the docstring stays as written and first (`instr_module`), and evaluates silently *)
Lemma doc_run L body u r sv : run (lex L) (tdoc body ++ u) r sv = run (lex L) u r sv.
Proof.
  destruct body as [|d rest]; [reflexivity|]. unfold tdoc. destruct d as [n v| | | | |]; try reflexivity.
  destruct v as [|m sc| | | | | | | | | | |]; try reflexivity. destruct sc; try reflexivity.
  cbn [is_doc_t app]. rewrite run_cons, lex_eq. cbn [exec_body]. destruct (ev_const L m (SStr s) r) as [x ->]. apply seq_skip.
Qed.

Theorem gmodule_sim L body : forallb src_s body = true ->
  forall r sv, sim (run (lex L) (instr_module c body) r sv) (module_res (rrun (lrs L true) (trest body) r)).
Proof.
  intros Hs r sv. unfold instr_module, instr_module0. rewrite doc_run, run_app.
  set (exit r2 := {| r_exc := None; r_env := r2; r_log := [(E_exit_module, 0, Some VNone)] |}).
  assert (H : sim (seq (run (lex L) (if sub c E_init_module then [SEmit E_init_module 0 None] else []) r sv)
                       (run (lex L) (flat_map (is_ c true) (trest body) ++ (if sub c E_exit_module then [SEmit E_exit_module 0 None] else []))))
                  (rseq {| r_exc := None; r_env := r; r_log := [(E_init_module, 0, Some VNone)] |}
                        (fun r1 => rseq (rrun (lrs L true) (trest body) r1) exit))).
  { apply sim_seq; [apply emit_sim|]. intros sv1. rewrite run_app. apply sim_seq; [|intros sv2; apply emit_sim].
    apply list_sim; [apply Forall_all, gstmt_sim|exact (trest_src body Hs)]. }
  revert H. unfold rseq, rpre, module_res. cbn [r_exc r_env r_log app].
  destruct (r_exc (rrun (lrs L true) (trest body) r)) eqn:Ex; intros (H1 & H2 & H3); cbn [r_exc r_env r_log] in H1, H2, H3;
    repeat split; try assumption; [exact (eq_trans H1 Ex)|].
  cbn [r_log]. rewrite app_nil_r. exact H3.
Qed.

Lemma eval_rhs_both n v r :
  eval_e (if sub c E_before_assign_rhs then XDefRhs n v else v) r = let '(q, l) := eval_e v r in (q, fl [(E_before_assign_rhs, n, None)] ++ l).
Proof. rewrite fl_single. destruct (sub c E_before_assign_rhs); cbn [FragSem.eval_e]; destruct (eval_e v r); reflexivity. Qed.

Definition sem : layer :=
  {| l_ev := eval_e; l_rf := ref_e; l_ovr := fun _ _ q => q; l_ov := fun _ _ x => x; l_od := fun _ _ => None;
     ev_wrap := eval_wrap binop cmpop unop truth cval is_and c; ev_ie := eval_ie binop cmpop unop truth cval is_and c;
     ev_rhs := eval_rhs_both; ev_const := fun _ _ _ => ex_intro _ _ eq_refl;
     ovr_ok := fun _ _ _ => eq_refl; ovr_err := fun _ _ _ => eq_refl |}.

Lemma exec_fix : exec_s = lex sem.
Proof. exact eq_refl. Qed.
Lemma exec_l_lex : exec_l = run (lex sem).
Proof. change exec_l with (run exec_s). rewrite exec_fix. reflexivity. Qed.
(* stated at `gref` and not at `lrs sem`: `ref_s` does not depend on the subscription `c`, `sem` does *)
Lemma ref_fix : ref_s = gref truth ref_e (fun _ _ q => q) (fun _ _ x => x) (fun _ _ => None).
Proof. exact eq_refl. Qed.
Lemma ref_l_gref m : ref_l m = rrun (gref truth ref_e (fun _ _ q => q) (fun _ _ x => x) (fun _ _ => None) m).
Proof. change (ref_l m) with (rrun (ref_s m)). rewrite ref_fix. reflexivity. Qed.

(* The statements in FragSem's own vocabulary (`exec_s`, `ref_s`, `body_of`, `main_ok`, `stmt_ok`), instances of the layer's;
   `stmt_sim` and `module_sim` are the names DESIGN.md cites. *)
Lemma ref_s_SIf m n t b o r :
  ref_s m (SIf n t b o) r =
  let body : option exc * env * list entry * val :=
    let '(q, l) := ref_e t r in
    match q with
    | Ok vt => let a := ref_l false (if truth vt then b else o) r in (r_exc a, r_env a, l ++ (E_after_if_test, n, Some vt) :: r_log a, VNone)
    | Err e => (Some e, r, l, VNone)
    end in
  let '(x, r', l, v) := body in
  let after_value := if m then v else VNone in
  {| r_exc := x; r_env := r';
     r_log := (E_before_stmt, n, Some VNone) :: l ++
              match x with
              | Some _ => []
              | None => (E_after_stmt, n, Some after_value) :: (if m then [(E_after_module_stmt, n, Some after_value)] else [])
              end |}.
Proof. rewrite ref_fix, ref_l_gref. reflexivity. Qed.

Definition exc_of (q : res val) : option exc := match q with Ok _ => None | Err e => Some e end.
Definition val_of (q : res val) : val := match q with Ok x => x | Err _ => VNone end.
Definition body_of (s : tstmt) (r : env) : option exc * env * list entry * val :=
  match s with
  | SExpr n v => let '(q, l) := ref_e v r in (exc_of q, r, l ++ emitted E_after_expr_stmt n q, val_of q)
  | SAssign n xs v =>
      let '(q, l) := ref_e v r in
      (exc_of q, match q with Ok x => fold_left (fun r' y => upd r' y x) xs r | Err _ => r end,
       (E_before_assign_rhs, xid v, None) :: l ++ emitted E_after_assign_rhs (xid v) q, VNone)
  | SPass _ => (None, r, [], VNone)
  | SIf n t b o =>
      let '(q, l) := ref_e t r in
      match q with
      | Ok vt => let a := ref_l false (if truth vt then b else o) r in (r_exc a, r_env a, l ++ (E_after_if_test, n, Some vt) :: r_log a, VNone)
      | Err e => (Some e, r, l, VNone)
      end
  | _ => (Some ETypeError, r, [], VNone)
  end.
Lemma body_of_sem s r : body_of s r = lbody sem s r.
Proof. unfold lbody, lrs. cbn [l_rf l_ovr l_ov l_od sem]. rewrite <- ref_fix. destruct s; reflexivity. Qed.

Definition stmt_ok (s : tstmt) : Prop := src_s s = true -> forall m r sv, sim (exec_l (is_ c m s) r sv) (ref_s m s r).
Lemma stmt_ok_sem s : stmt_ok s = sim_stmt sem s.
Proof. unfold stmt_ok, sim_stmt. rewrite exec_l_lex, ref_fix. reflexivity. Qed.

Definition main_ok (s : tstmt) : Prop := forall r sv,
  let A := exec_s (main_of s) r sv in
  let '(x, r', l, v) := body_of s r in
  s_exc A = x /\ s_env A = r' /\ filter_log c (s_log A) = filter_log c l.

Lemma assemble s : src_s s = true -> main_ok s -> stmt_ok s.
Proof.
  intros Hs HM. rewrite stmt_ok_sem. apply gassemble.
  intros r sv. specialize (HM r sv). rewrite exec_fix, body_of_sem in HM. exact HM.
Qed.

Theorem stmt_sim : forall s, stmt_ok s.
Proof. intros s. rewrite stmt_ok_sem. apply gstmt_sim. Qed.

Theorem module_sim body : forallb src_s body = true -> forall r sv,
  sim (exec_l (instr_module c body) r sv) (ref_module body r).
Proof.
  intros Hs r sv. unfold FragSem.ref_module, FragSem.ref_module0. rewrite exec_l_lex, ref_l_gref. exact (gmodule_sim sem body Hs r sv).
Qed.

Hypothesis none : forall e, sub c e = false.

Lemma ie_none : forall t, src_e t = true -> ie c t = t.
Proof.
  induction t using texpr_ind'; intros Hs; try discriminate Hs; cbn [ie src_e] in *; unfold wrap; rewrite ?none.
  - reflexivity.
  - destruct (const_ev c0); [rewrite none|]; reflexivity.
  - apply andb_true_iff in Hs as [H1 H2]. rewrite (IHt1 H1), (IHt2 H2). reflexivity.
  - apply andb_true_iff in Hs as [Hs _]. apply andb_true_iff in Hs as [Hs _]. apply andb_true_iff in Hs as [H1 Hc].
    rewrite (IHt H1). f_equal.
    induction H as [|x comps Hx _ IH]; [reflexivity|]. cbn [forallb] in Hc. apply andb_true_iff in Hc as [Hx' Hc].
    cbn [map]. rewrite ?none, (Hx Hx'), (IH Hc). reflexivity.
  - rewrite (IHt Hs). reflexivity.
  - f_equal. induction H as [|x es Hx _ IH]; [reflexivity|]. cbn [forallb] in Hs. apply andb_true_iff in Hs as [Hx' Hs].
    cbn [map]. rewrite (Hx Hx'), (IH Hs). reflexivity.
  - apply andb_true_iff in Hs as [Hs H3]. apply andb_true_iff in Hs as [H1 H2]. rewrite (IHt1 H1), (IHt2 H2), (IHt3 H3). reflexivity.
Qed.

Lemma is_none : forall s, src_s s = true -> forall m, is_ c m s = [s].
Proof.
  induction s using tstmt_ind'; intros Hs m; try discriminate Hs; rewrite is_unfold; cbv zeta; unfold own_of, wants, main_and_after;
    rewrite !none; cbn [orb andb]; rewrite ?andb_false_r; cbn [main_of src_s] in *; unfold wrap; rewrite ?none.
  - rewrite (ie_none v Hs). reflexivity.
  - rewrite (ie_none v Hs). reflexivity.
  - reflexivity.
  - apply andb_true_iff in Hs as [Hs Ho]. apply andb_true_iff in Hs as [Ht Hb]. rewrite (ie_none t Ht).
    rewrite (flat_map_unit _ _ b H Hb), (flat_map_unit _ _ o H0 Ho). reflexivity.
Qed.

Lemma instr_none body : forallb src_s body = true -> instr_module c body = body.
Proof.
  intros Hs. unfold instr_module, instr_module0. rewrite !none. cbn [app].
  rewrite app_nil_r, (flat_map_unit src_s (is_ c) _ (Forall_all _ is_none _) (trest_src body Hs)). apply tdoc_trest.
Qed.
End ProofsS.

Section Final.
Variable binop : N -> val -> val -> res val.
Variable cmpop : N -> val -> val -> res bool.
Variable unop : N -> val -> res val.
Variable truth : val -> bool.
Variable cval : scalar -> val.
Variable is_and : N -> bool.
Notation eval_e := (eval_e binop cmpop unop truth cval is_and).
Notation ref_e := (ref_e binop cmpop unop truth cval is_and).
Notation exec_l := (exec_l binop cmpop unop truth cval is_and).
Notation ref_module := (ref_module binop cmpop unop truth cval is_and).

Definition no_events : rcfg := {| sub := fun _ => false |}.
Lemma fl_no_events l : filter_log no_events l = [].
Proof. induction l as [|x l IH]; [reflexivity|exact IH]. Qed.

Lemma eval_src t r : src_e t = true -> eval_e t r = (fst (ref_e t r), []).
Proof.
  intros Hs. pose proof (eval_ie binop cmpop unop truth cval is_and no_events t Hs r) as H.
  rewrite (ie_none no_events (fun _ => eq_refl) t Hs), fl_no_events in H. exact H.
Qed.

(* C01 on the fragment: whatever is subscribed, the instrumented program ends with the exception and the bindings of the program as it is *)
Theorem frag_semantics c body r sv sv' : forallb src_s body = true ->
  s_exc (exec_l (instr_module c body) r sv) = s_exc (exec_l body r sv') /\
  s_env (exec_l (instr_module c body) r sv) = s_env (exec_l body r sv').
Proof.
  intros Hs.
  destruct (module_sim binop cmpop unop truth cval is_and c body Hs r sv) as (A1 & A2 & _).
  destruct (module_sim binop cmpop unop truth cval is_and no_events body Hs r sv') as (B1 & B2 & _).
  rewrite (instr_none no_events (fun _ => eq_refl) body Hs) in B1, B2.
  split; congruence.
Qed.

(* C02 on the fragment: the events the tracer is subscribed to arrive exactly as the reference stream says: each occurrence once, in order, with its value and node *)
Theorem frag_stream c body r sv : forallb src_s body = true ->
  filter_log c (s_log (exec_l (instr_module c body) r sv)) = filter_log c (r_log (ref_module body r)).
Proof. intros Hs. exact (proj2 (proj2 (module_sim binop cmpop unop truth cval is_and c body Hs r sv))). Qed.

(* C03 on the fragment: what a tracer sees for its events K does not depend on which further events E are subscribed *)
Theorem frag_projection K E body r sv sv' : forallb src_s body = true -> (forall e, sub K e = true -> sub E e = true) ->
  filter_log K (s_log (exec_l (instr_module E body) r sv)) = filter_log K (s_log (exec_l (instr_module K body) r sv')).
Proof.
  intros Hs HKE.
  rewrite (frag_stream K body r sv' Hs).
  rewrite <- (filter_sub K E _ HKE), (frag_stream E body r sv Hs), (filter_sub K E _ HKE). reflexivity.
Qed.
End Final.
