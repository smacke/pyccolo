(* Delivery of one occurrence to a stack of OBSERVING tracers (handlers that return nothing): who is called, with what,
   in what order.  Shared by C02 (exactly once, true value) and C05 (solo = stacked, outermost first).  Everything is derived
   from the runtime fold of model/Rt.v through C04's refinement theorem. *)
From Coq Require Import List NArith Bool Arith Lia Sorted.
Import ListNotations.
From PyccoloV Require Import gen.Events gen.EmitRet model.Val model.Rt proofs.RtProofs proofs.ListFacts.

Definition observing_h (h : hspec) : Prop := forall v, h_fun h v = HRet RNone.
Definition observing (t : tracer) : Prop := Forall observing_h (t_handlers t) /\ t_propagate t = false.

(* a handler runs for an occurrence iff its local guard is not set and its condition accepts the node *)
Definition h_enabled (h : hspec) : bool := negb (h_guard_skip h) && h_pred h.

Fixpoint calls_of (ti hi : nat) (hs : list hspec) (v : rv) : list callrec :=
  match hs with
  | [] => []
  | h :: hs' => (if h_enabled h then [(ti, hi, v)] else []) ++ calls_of ti (S hi) hs' v
  end.
Fixpoint stack_calls (ti : nat) (ts : list tracer) (v : rv) : list callrec :=
  match ts with
  | [] => []
  | t :: ts' => (if t_active t then calls_of ti 0 (t_handlers t) v else []) ++ stack_calls (S ti) ts' v
  end.

Lemma spec_tracer_obs ti : forall hs hi v log, Forall observing_h hs ->
  spec_tracer ti hi hs v log = (v, false, log ++ calls_of ti hi hs v).
Proof.
  induction hs as [|h hs IH]; intros hi v log Ho; cbn [spec_tracer calls_of].
  - now rewrite app_nil_r.
  - inversion Ho as [|? ? Hh Hhs]; subst. unfold h_enabled.
    destruct (h_guard_skip h); cbn [orb negb andb].
    + now rewrite IH.
    + destruct (h_pred h); cbn [negb].
      * rewrite (Hh v). cbn [step_spec]. rewrite IH by assumption. now rewrite <- app_assoc.
      * now rewrite IH.
Qed.

Lemma spec_all_obs : forall ts ti v log, Forall observing ts ->
  spec_all ti ts v log = (v, log ++ stack_calls ti ts v).
Proof.
  induction ts as [|t ts IH]; intros ti v log Ho; cbn [spec_all stack_calls].
  - now rewrite app_nil_r.
  - inversion Ho as [|? ? [Hh _] Hts]; subst.
    destruct (t_active t).
    + rewrite spec_tracer_obs by assumption. rewrite IH by assumption. now rewrite <- app_assoc.
    + now rewrite IH.
Qed.

Lemma observing_plain ts : Forall observing ts -> tracers_plain ts.
Proof.
  intros Ho t Hin. rewrite Forall_forall in Ho. destruct (Ho t Hin) as [Hh Hp]. split; [|exact Hp].
  intros h v Hinh. rewrite Forall_forall in Hh. now rewrite (Hh h Hinh v).
Qed.

(* the whole emission: the program gets its value back untouched (up to the deferred-event wrapper), the switches are
   restored, and the calls made are exactly stack_calls *)
Theorem emit_observing ev ts v : ast_event ev = true -> Forall observing ts -> plain v = true ->
  exists ths, emit ev true fl0 ts v = (TVal (make_ret ev v), fl0, ths, stack_calls 0 ts v).
Proof.
  intros He Ho Hv. destruct (fold_refines ev ts v He (observing_plain ts Ho) Hv) as (ths & E).
  rewrite spec_all_obs in E by assumption. cbn [fst snd app] in E. eauto.
Qed.

Definition c_ti (c : callrec) : nat := fst (fst c).
Definition c_hi (c : callrec) : nat := snd (fst c).
Definition c_val (c : callrec) : rv := snd c.

Lemma calls_of_bounds ti : forall hs hi v c, In c (calls_of ti hi hs v) -> c_ti c = ti /\ hi <= c_hi c /\ c_val c = v.
Proof.
  induction hs as [|h hs IH]; intros hi v c Hin; cbn [calls_of] in Hin; [destruct Hin|].
  apply in_app_or in Hin as [Hin|Hin].
  - destruct (h_enabled h); [|destruct Hin]. destruct Hin as [<-|[]]. cbn. auto.
  - apply IH in Hin as (A & B & C). repeat split; auto. lia.
Qed.

Lemma calls_of_in ti : forall hs hi k h v, nth_error hs k = Some h ->
  (In (ti, hi + k, v) (calls_of ti hi hs v) <-> h_enabled h = true).
Proof.
  induction hs as [|h0 hs IH]; intros hi k h v Hn; [destruct k; discriminate|].
  cbn [calls_of]. rewrite in_app_iff. destruct k as [|k]; cbn in Hn.
  - injection Hn as ->. rewrite Nat.add_0_r. split.
    + intros [Hin|Hin]; [now destruct (h_enabled h)|]. apply calls_of_bounds in Hin as (_ & Hle & _). cbn in Hle. lia.
    + intros ->. left. now left.
  - rewrite <- (IH (S hi) k h v Hn), <- plus_n_Sm. split; [intros [Hin|Hin]|now right]; [|exact Hin].
    destruct (h_enabled h0); [|destruct Hin]. destruct Hin as [[=]|[]]. lia.
Qed.

(* strictly ordered by handler index: each enabled handler is called exactly once, in definition order *)
Definition lex (a b : callrec) : Prop := c_ti a < c_ti b \/ (c_ti a = c_ti b /\ c_hi a < c_hi b).
Lemma calls_of_sorted ti : forall hs hi v, StronglySorted lex (calls_of ti hi hs v).
Proof.
  induction hs as [|h hs IH]; intros hi v; cbn [calls_of]; [constructor|].
  destruct (h_enabled h); cbn [app]; [|apply IH].
  constructor; [apply IH|]. apply Forall_forall. intros c Hc. apply calls_of_bounds in Hc as (A & B & _).
  right. split; [now rewrite A|exact B].
Qed.

Lemma active_bounds ti t v c : In c (if t_active t then calls_of ti 0 (t_handlers t) v else []) ->
  c_ti c = ti /\ c_val c = v.
Proof. destruct (t_active t); [|intros []]. intros Hin. now apply calls_of_bounds in Hin as (A & _ & C). Qed.

Lemma stack_bounds : forall ts ti v c, In c (stack_calls ti ts v) -> ti <= c_ti c /\ c_val c = v.
Proof.
  induction ts as [|t ts IH]; intros ti v c Hin; cbn [stack_calls] in Hin; [destruct Hin|].
  apply in_app_or in Hin as [Hin|Hin]; [apply active_bounds in Hin as [A C]|apply IH in Hin as [A C]]; split; auto; lia.
Qed.

Lemma sorted_app (l1 l2 : list callrec) : StronglySorted lex l1 -> StronglySorted lex l2 ->
  (forall a b, In a l1 -> In b l2 -> lex a b) -> StronglySorted lex (l1 ++ l2).
Proof.
  induction 1 as [|a l1 Hs IH Hf]; intros H2 Hc; cbn; [exact H2|].
  constructor.
  - apply IH; auto. intros x y Hx Hy. apply Hc; [now right|exact Hy].
  - apply Forall_app; split; [exact Hf|]. apply Forall_forall. intros y Hy. apply Hc; [now left|exact Hy].
Qed.

(* tracers are served in activation order, and within a tracer handlers in definition order; no call is repeated *)
Theorem stack_sorted : forall ts ti v, StronglySorted lex (stack_calls ti ts v).
Proof.
  induction ts as [|t ts IH]; intros ti v; cbn [stack_calls]; [constructor|].
  apply sorted_app.
  - destruct (t_active t); [apply calls_of_sorted|constructor].
  - apply IH.
  - intros a b Ha Hb. left. apply active_bounds in Ha as [-> _]. now apply stack_bounds in Hb as [Hle _].
Qed.

(* what tracer number k of the stack receives is exactly what it receives when it is the only tracer *)
Theorem stack_solo : forall ts ti k t v, nth_error ts k = Some t ->
  filter (fun c => c_ti c =? ti + k) (stack_calls ti ts v) = stack_calls (ti + k) [t] v.
Proof.
  induction ts as [|t0 ts IH]; intros ti k t v Hn; [destruct k; discriminate|]. destruct k as [|k]; cbn in Hn.
  - injection Hn as ->. cbn [stack_calls]. rewrite Nat.add_0_r, filter_app, filter_all, filter_none; [reflexivity| |].
    + intros c Hc. apply stack_bounds in Hc as [Hle _]. apply Nat.eqb_neq. lia.
    + intros c Hc. apply active_bounds in Hc as [-> _]. apply Nat.eqb_refl.
  - replace (ti + S k) with (S ti + k) by lia. rewrite <- (IH (S ti) k t v Hn). cbn [stack_calls]. rewrite filter_app, filter_none; [reflexivity|].
    intros c Hc. apply active_bounds in Hc as [-> _]. apply Nat.eqb_neq. lia.
Qed.

(* every call carries the value the program produced *)
Theorem stack_values ts v : Forall (fun c => c_val c = v) (stack_calls 0 ts v).
Proof. apply Forall_forall. intros c Hc. now apply stack_bounds in Hc. Qed.

(* a tracer with no handler for the event (not subscribed) receives nothing, as when no site had been generated for it *)
Lemma unsubscribed_silent ti t v : t_handlers t = [] -> stack_calls ti [t] v = [].
Proof. intros H. cbn. rewrite H. now destruct (t_active t). Qed.
