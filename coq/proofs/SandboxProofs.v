(* C15: tracer.exec (model/Sandbox.v) returns the bindings of the function-body reference and leaves no scaffold name behind.
   user_map / user_prog ask for names >= 10: in the interning table of the model's header the numbers below 10 are `__`, `builtins`,
   the scaffold's two names and the names starting with `@`. *)
From Coq Require Import List ZArith NArith Bool Lia.
Import ListNotations.
From PyccoloV Require Import model.Sandbox proofs.ListFacts.

Definition keys (m : assoc) : list N := map fst m.
Lemma keys_adel m k x : In x (keys (adel m k)) -> In x (keys m) /\ x <> k.
Proof.
  unfold keys, adel. rewrite !in_map_iff.
  intros ([j v] & <- & Hin). apply filter_In in Hin as [Hin Hne]. apply negb_true_iff, N.eqb_neq in Hne. eauto.
Qed.
Lemma keys_aset m k v x : In x (keys (aset m k v)) -> (In x (keys m) /\ x <> k) \/ x = k.
Proof. unfold aset. unfold keys. rewrite map_app. rewrite in_app_iff. fold (keys (adel m k)). intros [H|H]; [apply keys_adel in H|]; cbn in *; intuition. Qed.
Lemma adel_notin m k : ~ In k (keys m) -> adel m k = m.
Proof.
  intros H. apply filter_all. intros [j v] Hin. apply negb_true_iff, N.eqb_neq. intros <-.
  apply H. exact (in_map fst m (j, v) Hin).
Qed.
Lemma adel_comm m a b : adel (adel m a) b = adel (adel m b) a.
Proof. unfold adel. induction m as [|[j v] m IH]; cbn; auto. destruct (N.eqb j a) eqn:Ea, (N.eqb j b) eqn:Eb; cbn; rewrite ?Ea, ?Eb; cbn; congruence. Qed.
Lemma adel_app m1 m2 k : adel (m1 ++ m2) k = adel m1 k ++ adel m2 k.
Proof. unfold adel. apply filter_app. Qed.

Lemma aget_app m1 m2 x : aget (m1 ++ m2) x = match aget m1 x with Some v => Some v | None => aget m2 x end.
Proof. induction m1 as [|[j v] m IH]; cbn; auto. destruct (N.eqb j x); auto. Qed.
Lemma aget_filter (f : N -> bool) m x : aget (filter (fun kv => f (fst kv)) m) x = if f x then aget m x else None.
Proof.
  induction m as [|[j v] m IH]; cbn; [now destruct (f x)|].
  destruct (f j) eqn:Ej; cbn.
  - destruct (N.eqb j x) eqn:E; [apply N.eqb_eq in E; subst; now rewrite Ej|exact IH].
  - destruct (N.eqb j x) eqn:E; [apply N.eqb_eq in E; subst; now rewrite IH, Ej|exact IH].
Qed.
Lemma aget_adel m k x : aget (adel m k) x = if N.eqb x k then None else aget m x.
Proof. unfold adel. rewrite (aget_filter (fun j => negb (N.eqb j k))). now destruct (N.eqb x k). Qed.
Lemma aget_aset m k v x : aget (aset m k v) x = if N.eqb x k then Some v else aget m x.
Proof.
  unfold aset. rewrite aget_app, aget_adel. cbn. destruct (N.eqb x k) eqn:E.
  - rewrite N.eqb_sym, E. reflexivity.
  - rewrite N.eqb_sym, E. now destruct (aget m x).
Qed.
Lemma aget_setdefaults pt : forall res x, aget (setdefaults res pt) x = match aget res x with Some v => Some v | None => aget pt x end.
Proof.
  unfold setdefaults. induction pt as [|[k v] pt IH]; intros res x; cbn [fold_left fst snd aget]; [now destruct (aget res x)|].
  rewrite IH. destruct (aget res k) eqn:Ek.
  - destruct (aget res x) eqn:Ex; auto. destruct (N.eqb k x) eqn:E; auto. apply N.eqb_eq in E; subst. congruence.
  - rewrite aget_aset. destruct (N.eqb x k) eqn:E.
    + apply N.eqb_eq in E; subst. now rewrite Ek, N.eqb_refl.
    + rewrite N.eqb_sym, E. reflexivity.
Qed.
Lemma aget_some_in m k v : aget m k = Some v -> In k (keys m).
Proof. unfold keys. induction m as [|[j w] m IH]; cbn; [discriminate|]. destruct (N.eqb j k) eqn:E; [apply N.eqb_eq in E; auto|auto]. Qed.
Lemma aget_none_notin m k : ~ In k (keys m) -> aget m k = None.
Proof. intros H. destruct (aget m k) eqn:E; [|reflexivity]. now apply aget_some_in in E. Qed.
Lemma keys_setdefaults pt : forall res x, In x (keys (setdefaults res pt)) -> In x (keys res) \/ In x (keys pt).
Proof.
  unfold setdefaults. induction pt as [|[k v] pt IH]; intros res x H; cbn [fold_left fst snd] in H; [now left|].
  apply IH in H as [H|H]; [|right; now right].
  destruct (aget res k); [now left|]. apply keys_aset in H as [[H _]|H]; [now left|subst; right; now left].
Qed.

Definition op_name (o : op) : N := match o with Bind k _ | Del k | GBind k _ => k end.
Definition user_prog (p : prog) : Prop := forall o, In o (ops p) -> (10 <= op_name o)%N.
Definition user_map (m : assoc) : Prop := forall k, In k (keys m) -> (10 <= k)%N.

Lemma run_ops_keys l : forall loc g, (forall o, In o l -> (10 <= op_name o)%N) -> user_map loc -> user_map g ->
  user_map (fst (run_ops l (loc, g))) /\ user_map (snd (run_ops l (loc, g))).
Proof.
  induction l as [|o l IH]; intros loc g Hp Hl Hg; cbn; auto.
  assert (Ho : (10 <= op_name o)%N) by (apply Hp; now left).
  destruct o as [k v|k|k v]; cbn in *; apply IH; auto; try (intros; apply Hp; now right).
  - intros x Hx. apply keys_aset in Hx as [[Hx _]|Hx]; subst; auto.
  - intros x Hx. apply keys_adel in Hx as [Hx _]; auto.
  - intros x Hx. apply keys_aset in Hx as [[Hx _]|Hx]; subst; auto.
Qed.

Lemma usable_user k : (10 <= k)%N -> usable k = true.
Proof.
  intros Hk. unfold usable, at_prefixed, n_dunder. apply andb_true_intro. split; apply negb_true_iff.
  - apply andb_false_intro2. apply N.leb_gt. lia.
  - apply N.eqb_neq. lia.
Qed.
(* every supplied name can be, and is, a parameter: none is declared global by the program, none is a keyword / non-identifier *)
Definition plain_locals (L : assoc) (p : prog) : Prop := forall k, In k (keys L) -> is_param (gdecl p) k = true.
Lemma plain_params L p : plain_locals L p -> filter (fun kv => is_param (gdecl p) (fst kv)) L = L.
Proof. intros H. apply filter_all. intros [k v] Hin. apply H. unfold keys. now apply (in_map fst) in Hin. Qed.
Lemma plain_pt L p : plain_locals L p -> filter (fun kv => passes_through (gdecl p) (fst kv)) L = [].
Proof.
  intros H. apply filter_none. intros [k v] Hin. unfold passes_through. cbn [fst].
  rewrite (H k); [reflexivity|]. unfold keys. now apply (in_map fst) in Hin.
Qed.

Lemma adel_aset_same m k v : ~ In k (keys m) -> adel (aset m k v) k = m.
Proof. intros H. unfold aset. rewrite adel_app, !(adel_notin m k H). cbn. rewrite N.eqb_refl. apply app_nil_r. Qed.
Lemma user_map_notin m k : user_map m -> (k < 10)%N -> ~ In k (keys m).
Proof. intros H Hk Hc. apply H in Hc. lia. Qed.

(* the scaffold's own names go as they came: the two parked in the caller's mapping, and the **__ catch-all in the result *)
Lemma restore_L L : user_map L -> adel (adel (aset (aset L n_env 0) n_fun 0) n_fun) n_env = L.
Proof.
  intros H. rewrite !adel_aset_same; [reflexivity|now apply user_map_notin|].
  intros Hc. apply keys_aset in Hc as [[Hc _]|Hc]; [|discriminate]. now apply (user_map_notin L n_fun).
Qed.
Lemma result_locals loc : user_map loc -> adel (adel (aset loc n_dunder 0) n_dunder) n_builtins = loc.
Proof. intros H. rewrite adel_aset_same, adel_notin; auto; now apply user_map_notin. Qed.

Lemma user_map_filter (f : N * Z -> bool) m : user_map m -> user_map (filter f m).
Proof. intros H k Hk. apply H. unfold keys in *. apply in_map_iff in Hk as ([a b] & <- & Hin). apply filter_In in Hin as [Hin _]. now apply (in_map fst) in Hin. Qed.

Lemma exec_model_finishes L G p : user_map L -> user_map G -> user_prog p -> raises_after p = None ->
  let st := run_ops (ops p) (filter (fun kv => is_param (gdecl p) (fst kv)) L, G) in
  exec_model L G p = (Some (setdefaults (fst st) (filter (fun kv => passes_through (gdecl p) (fst kv)) L)), L, snd st).
Proof.
  intros HL HG Hp Hr. unfold exec_model. rewrite Hr.
  set (params := filter (fun kv => is_param (gdecl p) (fst kv)) L).
  destruct (run_ops_keys (ops p) params G Hp (user_map_filter _ L HL) HG) as [Hloc _].
  unfold assoc in *. destruct (run_ops (ops p) (params, G)) as [loc g]. cbn [fst snd] in *.
  now rewrite (restore_L L HL), (result_locals loc Hloc).
Qed.

(* C15_result: exactly the function-body reference, and the caller's mapping is left as it was *)
Theorem exec_refines L G p : user_map L -> user_map G -> user_prog p -> plain_locals L p -> raises_after p = None ->
  exec_model L G p = (Some (fst (spec_result L G p)), L, snd (spec_result L G p)).
Proof.
  intros HL HG Hp Hpl Hr.
  rewrite (exec_model_finishes L G p HL HG Hp Hr), (plain_params L p Hpl), (plain_pt L p Hpl). reflexivity.
Qed.

Lemma run_ops_snd_indep l : forall loc1 loc2 g, snd (run_ops l (loc1, g)) = snd (run_ops l (loc2, g)).
Proof. induction l as [|o l IH]; intros loc1 loc2 g; cbn; auto. destruct o; cbn; apply IH. Qed.

(* when the program raises: the caller's mapping is untouched, globals hold what was bound before the raise *)
Theorem exec_raises L G p i : user_map L -> user_map G -> user_prog p -> raises_after p = Some i ->
  exec_model L G p = (None, L, snd (run_ops (firstn i (ops p)) (L, G))).
Proof.
  intros HL HG Hp Hr. unfold exec_model. rewrite Hr.
  pose proof (run_ops_snd_indep (firstn i (ops p)) (filter (fun kv => is_param (gdecl p) (fst kv)) L) L G) as Hs.
  unfold assoc in *.
  destruct (run_ops (firstn i (ops p)) (filter (fun kv => is_param (gdecl p) (fst kv)) L, G)) as [loc0 g0].
  destruct (run_ops (firstn i (ops p)) (L, G)) as [loc g]. cbn in *. subst g0. now rewrite (restore_L L HL).
Qed.

(* supplied names that are NOT parameters: declared global by the program, or not a possible parameter name *)
Definition wf_prog (p : prog) : Prop := forall o, In o (ops p) ->
  match o with
  | Bind k _ | Del k => cannot_be_param k = false /\ ~ In k (gdecl p)      (* a local of the program: an identifier it does not declare global *)
  | GBind k _ => In k (gdecl p)
  end.
Lemma existsb_eqb_false k gd : ~ In k gd -> existsb (N.eqb k) gd = false.
Proof. intros H. apply not_true_is_false. now rewrite existsb_eqb_In. Qed.

Lemma run_ops_fst_lookup l x : forall loc1 loc2 g1 g2, aget loc1 x = aget loc2 x ->
  aget (fst (run_ops l (loc1, g1))) x = aget (fst (run_ops l (loc2, g2))) x.
Proof.
  induction l as [|o l IH]; intros loc1 loc2 g1 g2 H; [exact H|].
  destruct o as [k v|k|k v]; apply IH.
  - rewrite !aget_aset. now destruct (N.eqb x k).
  - rewrite !aget_adel. now destruct (N.eqb x k).
  - exact H.
Qed.
Lemma run_ops_fst_untouched l x : forall st,
  (forall o, In o l -> match o with Bind k _ | Del k => k <> x | GBind _ _ => True end) ->
  aget (fst (run_ops l st)) x = aget (fst st) x.
Proof.
  induction l as [|o l IH]; intros st H; [reflexivity|].
  change (run_ops (o :: l) st) with (run_ops l (apply_op st o)). rewrite IH by (intros; apply H; now right).
  specialize (H o (or_introl eq_refl)). destruct st as [loc g], o as [k v|k|k v]; cbn.
  - rewrite aget_aset. destruct (N.eqb_spec x k); congruence.
  - rewrite aget_adel. destruct (N.eqb_spec x k); congruence.
  - reflexivity.
Qed.

Lemma local_is_param gd k : (10 <= k)%N -> cannot_be_param k = false -> ~ In k gd -> is_param gd k = true.
Proof. intros Hu Hc Hg. unfold is_param. now rewrite (usable_user k Hu), Hc, (existsb_eqb_false k gd Hg). Qed.
Lemma run_ops_nonparam gd l x :
  (forall o, In o l -> (10 <= op_name o)%N) ->
  (forall o, In o l -> match o with Bind k _ | Del k => cannot_be_param k = false /\ ~ In k gd | GBind k _ => In k gd end) ->
  is_param gd x = false -> forall st, aget (fst (run_ops l st)) x = aget (fst st) x.
Proof.
  intros Hu Hw Hx st. apply run_ops_fst_untouched. intros o Ho. specialize (Hu o Ho). specialize (Hw o Ho).
  destruct o as [k v|k|k v]; trivial; intros ->; destruct Hw as [Hc Hg]; now rewrite (local_is_param gd x Hu Hc Hg) in Hx.
Qed.

Lemma run_ops_lookup gd l : forall loc1 loc2 g,
  (forall o, In o l -> (10 <= op_name o)%N) ->
  (forall o, In o l -> match o with Bind k _ | Del k => cannot_be_param k = false /\ ~ In k gd | GBind k _ => In k gd end) ->
  (forall x, is_param gd x = true -> aget loc1 x = aget loc2 x) ->
  (forall x, is_param gd x = true -> aget (fst (run_ops l (loc1, g))) x = aget (fst (run_ops l (loc2, g))) x)
  /\ (forall x, is_param gd x = false -> aget (fst (run_ops l (loc1, g))) x = aget loc1 x /\ aget (fst (run_ops l (loc2, g))) x = aget loc2 x).
Proof.
  intros loc1 loc2 g Hu Hw He. split; [intros x Hx; now apply run_ops_fst_lookup, He|].
  intros x Hx. split; now apply (run_ops_nonparam gd l x Hu Hw Hx (_, g)).
Qed.

(* the result holds, name by name, what the function-body reference holds - supplied names the program declares global or
   that cannot be parameters included (they are handed back unchanged) *)
Theorem exec_passthrough L G p : user_map L -> user_map G -> user_prog p -> wf_prog p -> raises_after p = None ->
  exists res, exec_model L G p = (Some res, L, snd (spec_result L G p)) /\ forall k, aget res k = aget (fst (spec_result L G p)) k.
Proof.
  intros HL HG Hp Hw Hr. rewrite (exec_model_finishes L G p HL HG Hp Hr). unfold spec_result.
  set (params := filter (fun kv => is_param (gdecl p) (fst kv)) L).
  assert (He : forall x, is_param (gdecl p) x = true -> aget params x = aget L x).
  { intros x Hx. unfold params. now rewrite (aget_filter (is_param (gdecl p))), Hx. }
  destruct (run_ops_lookup (gdecl p) (ops p) params L G Hp Hw He) as [H1 H2].
  unfold assoc in *. eexists. split; [f_equal; apply run_ops_snd_indep|]. intros k.
  rewrite aget_setdefaults, (aget_filter (passes_through (gdecl p))). unfold passes_through.
  destruct (is_param (gdecl p) k) eqn:Ek.
  - rewrite (H1 k Ek). destruct (aget _ k); reflexivity.
  - destruct (H2 k Ek) as [-> ->]. unfold params. rewrite (aget_filter (is_param (gdecl p))), Ek. cbn [negb andb].
    destruct (usable k) eqn:Eu; [reflexivity|]. symmetry. apply aget_none_notin. intros Hc. apply HL in Hc.
    rewrite (usable_user k Hc) in Eu. discriminate.
Qed.

Lemma firstn_In {A} i (l : list A) x : In x (firstn i l) -> In x l.
Proof. intros H. rewrite <- (firstn_skipn i l). apply in_or_app. now left. Qed.

(* C15_clean: no library-internal name in the result, the caller's mapping or globals, whether it finishes or raises *)
Definition clean (m : assoc) : Prop := forall k, In k (keys m) -> internal k = false.
Lemma user_clean m : user_map m -> clean m.
Proof. intros H k Hk. apply H in Hk. unfold internal, n_env, n_fun. apply orb_false_intro; apply N.eqb_neq; lia. Qed.
Theorem exec_clean L G p : user_map L -> user_map G -> user_prog p ->
  let '(r, L', G') := exec_model L G p in
  clean L' /\ clean G' /\ match r with Some res => clean res | None => True end.
Proof.
  intros HL HG Hp. destruct (raises_after p) as [i|] eqn:Er.
  - rewrite (exec_raises L G p i HL HG Hp Er). split; [now apply user_clean|]. split; auto.
    apply user_clean. apply (run_ops_keys _ L G (fun o Ho => Hp o (firstn_In _ _ _ Ho)) HL HG).
  - rewrite (exec_model_finishes L G p HL HG Hp Er).
    set (params := filter (fun kv => is_param (gdecl p) (fst kv)) L).
    destruct (run_ops_keys (ops p) params G Hp (user_map_filter _ L HL) HG) as [H1 H2].
    repeat split; try (apply user_clean; assumption).
    apply user_clean. intros k Hk. apply keys_setdefaults in Hk as [Hk|Hk]; [now apply H1|exact (user_map_filter _ L HL k Hk)].
Qed.

Lemma run_ops_snd_lookup l k : forall loc1 loc2 g1 g2, aget g1 k = aget g2 k ->
  aget (snd (run_ops l (loc1, g1))) k = aget (snd (run_ops l (loc2, g2))) k.
Proof.
  induction l as [|o l IH]; intros loc1 loc2 g1 g2 H; [exact H|].
  destruct o as [x v|x|x v]; apply IH; try exact H.
  rewrite !aget_aset. now destruct (N.eqb k x).
Qed.
Lemma run_ops_fst_indep l : forall loc g1 g2, fst (run_ops l (loc, g1)) = fst (run_ops l (loc, g2)).
Proof. induction l as [|o l IH]; intros loc g1 g2; cbn; auto. destruct o; cbn; apply IH. Qed.

(* parking the scaffold's two names in the mapping the program writes its globals to shows under no other name, and once
   they are taken out again the mapping is, name by name, what the program alone leaves *)
Lemma run_ops_parked l loc M k : k <> n_env -> k <> n_fun ->
  aget (snd (run_ops l (loc, aset (aset M n_env 0) n_fun 0))) k = aget (snd (run_ops l (loc, M))) k.
Proof.
  intros H1 H2. apply run_ops_snd_lookup. rewrite !aget_aset.
  destruct (N.eqb_spec k n_fun), (N.eqb_spec k n_env); congruence.
Qed.
Lemma run_ops_unparked l loc M : (forall o, In o l -> (10 <= op_name o)%N) -> user_map loc -> user_map M ->
  forall k, aget (adel (adel (snd (run_ops l (loc, aset (aset M n_env 0) n_fun 0))) n_fun) n_env) k = aget (snd (run_ops l (loc, M))) k.
Proof.
  intros Hl Hloc HM k. destruct (run_ops_keys l loc M Hl Hloc HM) as [_ Hg]. rewrite !aget_adel.
  destruct (N.eqb_spec k n_env) as [->|H1]; [symmetry; now apply aget_none_notin, user_map_notin|].
  destruct (N.eqb_spec k n_fun) as [->|H2]; [symmetry; now apply aget_none_notin, user_map_notin|].
  now apply run_ops_parked.
Qed.

Lemma aget_flat_pt (g : assoc) names x :
  aget (flat_map (fun k => match aget g k with Some v => [(k, v)] | None => [] end) names) x =
    if existsb (N.eqb x) names then aget g x else None.
Proof.
  induction names as [|k names IH]; [reflexivity|]. cbn [flat_map existsb]. rewrite aget_app, IH.
  destruct (N.eqb_spec x k) as [->|Hne]; cbn [orb].
  - destruct (aget g k) as [v|] eqn:E; cbn [aget]; [now rewrite N.eqb_refl|]. now destruct (existsb (N.eqb k) names).
  - destruct (aget g k) as [v|] eqn:E; cbn [aget]; [|reflexivity].
    destruct (N.eqb_spec k x) as [->|_]; [congruence|reflexivity].
Qed.
Lemma existsb_keys_filter (f : N -> bool) (M : assoc) x :
  existsb (N.eqb x) (map fst (filter (fun kv => f (fst kv)) M)) = f x && existsb (N.eqb x) (keys M).
Proof.
  unfold keys. induction M as [|[k v] M IH]; cbn [filter map existsb fst]; [now rewrite andb_false_r|].
  destruct (f k) eqn:Ek; cbn [map existsb fst]; rewrite IH.
  - destruct (N.eqb_spec x k) as [->|_]; cbn [orb]; [now rewrite Ek|reflexivity].
  - destruct (N.eqb_spec x k) as [->|_]; cbn [orb]; [rewrite Ek; reflexivity|reflexivity].
Qed.

(* locals is globals: the mapping afterwards holds, name by name, what the reference's globals hold; the result holds the
   reference's locals for the names that are parameters, and for the supplied names that are not (declared global, or no possible
   parameter name) their FINAL value in the mapping *)
Theorem exec_same_refines M p : user_map M -> user_prog p -> wf_prog p -> raises_after p = None ->
  exists res M', exec_same M p = (Some res, M') /\
    (forall k, aget M' k = aget (snd (spec_same M p)) k) /\
    (forall k, aget res k =
       if is_param (gdecl p) k then aget (fst (spec_same M p)) k
       else if usable k && existsb (N.eqb k) (keys M) then aget (snd (spec_same M p)) k else None).
Proof.
  intros HM Hp Hw Hr. unfold exec_same, spec_same. rewrite Hr.
  set (params := filter (fun kv => is_param (gdecl p) (fst kv)) M).
  assert (Hpar : user_map params) by (apply user_map_filter; exact HM).
  pose proof (run_ops_fst_indep (ops p) params (aset (aset M n_env 0) n_fun 0) M) as Hfst.
  pose proof (run_ops_keys (ops p) params M Hp Hpar HM) as [HlocK _].
  pose proof (run_ops_unparked (ops p) params M Hp Hpar HM) as HM'.
  pose proof (fun k => run_ops_parked (ops p) params M k) as Hg.
  set (M1 := aset (aset M n_env 0) n_fun 0) in *.
  (* the program's locals never hold a name that is not a parameter *)
  assert (HlocNP : forall x, is_param (gdecl p) x = false -> aget (fst (run_ops (ops p) (params, M))) x = None).
  { intros x Hx. rewrite (run_ops_nonparam (gdecl p) (ops p) x Hp Hw Hx). unfold params. cbn [fst].
    now rewrite (aget_filter (is_param (gdecl p))), Hx. }
  unfold assoc in *.
  destruct (run_ops (ops p) (params, M1)) as [loc g]. destruct (run_ops (ops p) (params, M)) as [locS gS].
  cbn [fst snd] in *. subst loc. rewrite (result_locals locS HlocK).
  eexists. eexists. split; [reflexivity|]. split; [exact HM'|]. intros k.
  rewrite aget_setdefaults, aget_flat_pt, (existsb_keys_filter (passes_through (gdecl p)) M k). unfold passes_through.
  destruct (is_param (gdecl p) k) eqn:Ek; cbn [negb andb]; [now destruct (aget locS k)|].
  rewrite (HlocNP k Ek). destruct (usable k && existsb (N.eqb k) (keys M)) eqn:Eu; [|reflexivity].
  apply andb_prop in Eu as [_ Ein]. apply existsb_eqb_In in Ein.
  pose proof (HM k Ein) as Hk10. apply Hg; unfold n_env, n_fun; lia.
Qed.

Theorem exec_same_raises M p i : user_map M -> user_prog p -> raises_after p = Some i ->
  exists M', exec_same M p = (None, M') /\
    forall k, aget M' k = aget (snd (run_ops (firstn i (ops p)) (filter (fun kv => is_param (gdecl p) (fst kv)) M, M))) k.
Proof.
  intros HM Hp Hr. unfold exec_same. rewrite Hr.
  set (params := filter (fun kv => is_param (gdecl p) (fst kv)) M).
  pose proof (run_ops_unparked (firstn i (ops p)) params M (fun o Ho => Hp o (firstn_In _ _ _ Ho)) (user_map_filter _ M HM) HM) as HM'.
  unfold assoc in *. destruct (run_ops (firstn i (ops p)) _) as [loc g]. eexists. split; [reflexivity|]. exact HM'.
Qed.

(* a program that binds the names `builtins` or `__` loses them from the result (known finding) *)
Theorem reserved_names_refuted :
  exists p, raises_after p = None /\
    aget (fst (spec_result [] [] p)) n_builtins = Some 5%Z /\
    (match fst (fst (exec_model [] [] p)) with Some res => aget res n_builtins | None => None end) = None.
Proof. exists {| ops := [Bind n_builtins 5%Z]; raises_after := None; gdecl := [] |}. vm_compute. repeat split; reflexivity. Qed.
