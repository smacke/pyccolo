(* C03 on the fragment, unbounded: K-erasing the model's output for ANY subscription set that contains K gives one and the
   same tree, the canonical K-form rw_moduleK K m.  (The syntactic projection theorem; with K-syn it is the unbounded
   counterpart of the per-pair projection certificates of C03.)  It is RwFragProofs.rw_module_proj_can for the root rewrite
   `postk K`, which keeps the sites of K, with rwsK as the canonical form of statements. *)
From Coq Require Import List ZArith NArith Bool.
Import ListNotations.
From PyccoloV Require Import gen.PyAst gen.Ids gen.Events model.Tree model.Erase model.Prune model.RwFrag
  proofs.EraseSound proofs.PruneSound proofs.RwFragProofs.
Local Open Scope N_scope.

Section K.
  Variable K : list N.
  Definition inK (e : event) : bool := mem (ev_code e) K.
  Definition cK : rcfg := {| sub := inK |}.

  Lemma postk_laws : root_laws (postk K) cK.
  Proof.
    split.
    - intros k sc fs H. unfold special_kind in H. cbn [existsb] in H.
      apply orb_false_elim in H as [H1 H]. apply orb_false_elim in H as [H2 H]. apply orb_false_elim in H as [H3 H].
      apply orb_false_elim in H as [H4 H]. apply orb_false_elim in H as [H5 H]. apply orb_false_elim in H as [H6 _].
      now apply cascade_last.
    - intros k. unfold postk. destruct (N.eqb k kCall); [reflexivity|]. destruct (N.eqb k kIfExp); [reflexivity|].
      destruct (N.eqb k kIf); [reflexivity|]. destruct (N.eqb k kTry); [reflexivity|]. destruct (N.eqb k kExpr); [reflexivity|].
      destruct (N.eqb k kSubscript); reflexivity.
    - intros e n kws r Hk Ht Hs Hf. unfold postk. change (N.eqb kCall kCall) with true. cbv iota.
      unfold special_ev in Hs. rewrite emit_parts_emit, Hk, Ht, Hs. unfold norm_emit. rewrite Hf.
      change (keeps K (ev_code e) true) with (keepv cK e). now destruct (keepv cK e).
    - reflexivity.
    - reflexivity.
    - intros f args Hf Ha. unfold postk. change (N.eqb kCall kCall) with true. cbv iota. now rewrite Ha, Hf.
    - intros e n la body args He. unfold postk, post. change (N.eqb kCall kCall) with true. cbv iota.
      rewrite emit_parts_not_emit by reflexivity.
      unfold emit_call. rewrite emit_parts_emit, kw_value_ret, tlam_parts_tlam.
      unfold keeps. rewrite He, andb_false_r, orb_false_r. change (mem (ev_code e) K) with (sub cK e). now destruct (sub cK e).
    - intros a b o H. lazy beta iota zeta delta [postk kIfExp kCall N.eqb Pos.eqb]. now rewrite H.
    - intros t b o H1 H2. lazy beta iota zeta delta [postk kIf kIfExp kCall N.eqb Pos.eqb]. now rewrite H1, H2.
    - intros im n o. lazy beta iota zeta delta [postk kIf kIfExp kCall N.eqb Pos.eqb].
      change (is_guard_test (emit_call E_before_stmt n [])) with false. change (is_emit_of E_before_stmt (emit_call E_before_stmt n [])) with true.
      cbv iota. unfold keeps. cbn [andb]. rewrite orb_false_r. change (mem (ev_code E_before_stmt) K) with (sub cK E_before_stmt).
      destruct (sub cK E_before_stmt); [reflexivity|].
      unfold after_can. destruct im; cbn [andb]; [destruct (sub cK E_after_stmt || sub cK E_after_module_stmt)|]; reflexivity.
    - intros v H. unfold stays in H. lazy beta iota zeta delta [postk kExpr kTry kIf kIfExp kCall N.eqb Pos.eqb].
      destruct (emit_parts v) as [[[[ev nid] rest] kws]|]; [|reflexivity]. destruct (kw_value id_ret kws); [|discriminate].
      apply negb_true_iff in H. now rewrite H.
    - intros e n. lazy beta iota zeta delta [postk kExpr kTry kIf kIfExp kCall N.eqb Pos.eqb emit_call]. rewrite emit_parts_emit. cbn [kw_value find]. unfold keeps. cbn [andb]. rewrite orb_false_r.
      change (mem (ev_code e) K) with (sub cK e). now destruct (sub cK e).
  Qed.
End K.

(* the canonical K-form of a statement's expansion: what the K-erasure of the expansion under ANY subscription set containing K
   looks like *)
Section KStmts.
  Variable K : list N.
  Notation cK := (cK K).
  Notation inK := (inK K).

  Definition ret_kept : bool := inK E_after_stmt || inK E_after_module_stmt.     (* an after_stmt site that carries a value *)
  Definition after_k (is_module : bool) (n : N) (m : tree) (m_is_expr : bool) (m_value : tree) : list tree :=
    if m_is_expr && is_module then (if ret_kept then [stmt_emit E_after_stmt n [kw id_ret m_value]] else [m])
    else m :: (if inK E_after_stmt then [stmt_emit E_after_stmt n []] else []).

  Fixpoint rwsK (is_module : bool) (s : tree) (n : N) {struct s} : list tree :=
    match s with
    | NoneNode => [NoneNode]
    | T k sc fs =>
        let body_list := fix gol (u : list tree) (j : N) {struct u} : list tree :=
                           match u with [] => [] | x :: u' => rwsK false x j ++ gol u' (j + nsize x) end in
        let main : tree :=
          if N.eqb k kIf then
            match fs with
            | [[test]; b; o] =>
                let nb := n + 1 + nsize test in
                T k sc [[wrap_if (inK E_after_if_test) (emit_ret E_after_if_test n) (rwe cK test (n + 1))]; body_list b nb; body_list o (nb + nsizes b)]
            | _ => s
            end
          else main_of cK k sc fs n in
        let own := after_k is_module n main (N.eqb k kExpr) (match main with T _ _ [[v]] => v | _ => main end) in
        let expanded :=
          if inK E_before_stmt
          then [T kIf [] [[emit_call E_before_stmt n []]; after_k is_module n (expr_stmt thunk_call) true thunk_call; own]]
          else own in
        if is_module && inK E_after_module_stmt
        then expanded ++ [stmt_emit E_after_module_stmt n [kw id_ret (emit_call E_priv_load_saved_expr_stmt_ret n [])]]
        else expanded
    end.

  (* by computation on rwsK, where after_k is after_can cK and, at Expr / Assign / Pass, main_of cK is stmt_main cK.  The If
     case carries the nested blocks: there the recursive calls are folded by cbn before the two sides are compared (see `gexec`
     in FragSemProofs.v) *)
  Lemma rwsK_can : can_law cK rwsK.
  Proof. intros s [v _|ts v _ _| |t b o _ _ _] im n; [exact eq_refl..|cbn [rwsK]; reflexivity]. Qed.
End KStmts.

Section KModule.
  Variable K : list N.
  Hypothesis HKpriv : inK K E_priv_load_saved_expr_stmt_ret = false.
  Notation ek := (erasek K).

  (* rw_bodyK is body_of (rwsK K true) and rw_moduleK is module_can (cK K) (rwsK K): the proof of rw_module_proj rests on these
     two conversions; the statements of C03 name rw_moduleK. *)
  Fixpoint rw_bodyK (u : list tree) (j : N) {struct u} : list tree :=
    match u with [] => [] | x :: u' => rwsK K true x j ++ rw_bodyK u' (j + nsize x) end.
  Definition rw_moduleK (m : tree) : tree :=
    match m with
    | T k sc [body; ti] =>
        T k sc [mod_doc body
                ++ (if inK K E_init_module then [stmt_emit E_init_module 0 []] else [])
                ++ rw_bodyK (mod_rest body) (mod_start body)
                ++ (if inK K E_exit_module then [stmt_emit E_exit_module 0 []] else []); ti]
    | _ => m
    end.

  Section C.
    Variable c : rcfg.
    Hypothesis Ksub : forall e, inK K e = true -> sub c e = true.

    (* K-erasing the rewrite of a fragment module under ANY subscription set containing K gives one and the same tree *)
    Theorem rw_module_proj m : in_frag m = true -> ek (rw_module c m) = Some [rw_moduleK m].
    Proof. exact (rw_module_proj_can (postk K) (cK K) c (postk_laws K) Ksub HKpriv (rwsK K) (rwsK_can K) m). Qed.
  End C.

  Lemma trees_eqb_refl l : trees_eqb l l = true.
  Proof. induction l as [|x l IH]; [reflexivity|]. cbn. now rewrite tree_eqb_refl, IH. Qed.

  (* the projection certificate holds for the model: the rewrite for K alone and the rewrite for any superset of K
     K-erase to the same tree *)
  Theorem rw_module_check_proj c m : (forall e, inK K e = true -> sub c e = true) -> in_frag m = true ->
    check_proj K (rw_module (cK K) m) (rw_module c m) = true.
  Proof.
    intros Ksub H. unfold check_proj.
    rewrite (rw_module_proj (cK K) (fun e He => He) m H), (rw_module_proj c Ksub m H). apply trees_eqb_refl.
  Qed.
End KModule.
