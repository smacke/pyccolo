(* C18: every table write of the bookkeeping visitor agrees with the lexical structure of the tree. *)
From Coq Require Import List NArith Bool.
Import ListNotations.
From PyccoloV Require Import model.Book.

Lemma node_ind2 (P : node -> Prop) : (forall n, (forall bc, In bc (nchildren n) -> P (snd bc)) -> P n) -> forall n, P n.
Proof.
  intros H. fix IH 1. intros n. apply H. destruct n as [st i cs]. cbn [nchildren].
  induction cs as [|x cs IHcs]; intros bc Hin; [destruct Hin|]. destruct Hin as [<-|Hin]; [apply IH|exact (IHcs bc Hin)].
Qed.

(* the recursive part of visit / nodes, named *)
Definition go_visit (cur : option N) := fix go (l : list (bool * node)) : list write :=
  match l with [] => [] | (_, c) :: l' => visit cur c ++ go l' end.
Definition go_nodes := fix go (l : list (bool * node)) : list node :=
  match l with [] => [] | (_, c) :: l' => nodes c ++ go l' end.
Lemma in_go {A} (f : node -> list A) l x :
  In x ((fix go (l : list (bool * node)) := match l with [] => [] | (_, c) :: l' => f c ++ go l' end) l) <->
  exists bc, In bc l /\ In x (f (snd bc)).
Proof.
  rewrite <- (in_flat_map (fun bc => f (snd bc))).
  induction l as [|[b c] l IH]; cbn; [reflexivity|]. rewrite !in_app_iff, IH. reflexivity.
Qed.
Lemma in_go_visit cur l w : In w (go_visit cur l) <-> exists bc, In bc l /\ In w (visit cur (snd bc)).
Proof. apply in_go. Qed.
Lemma in_go_nodes l n : In n (go_nodes l) <-> exists bc, In bc l /\ In n (nodes (snd bc)).
Proof. apply in_go. Qed.

Lemma in_nodes n K : In K (nodes n) <-> n = K \/ exists bc, In bc (nchildren n) /\ In K (nodes (snd bc)).
Proof. destruct n as [st i cs]. rewrite <- in_go_nodes. reflexivity. Qed.
Lemma nodes_self n : In n (nodes n).
Proof. apply in_nodes. left. reflexivity. Qed.
Lemma nodes_kid n bc K : In bc (nchildren n) -> In K (nodes (snd bc)) -> In K (nodes n).
Proof. intros Hbc HK. apply in_nodes. right. exists bc. split; assumption. Qed.
Lemma nodes_trans : forall a b c, In b (nodes a) -> In c (nodes b) -> In c (nodes a).
Proof.
  intros a. induction a as [a IH] using node_ind2. intros b c Hb Hc.
  apply in_nodes in Hb as [<-|(bc & Hbc & Hb)]; [exact Hc|]. exact (nodes_kid a bc c Hbc (IH bc Hbc b c Hb Hc)).
Qed.

(* visit's cur' *)
Definition inner (cur : option N) (n : node) : option N := if nstmt n then Some (nid n) else cur.
Definition direct (cur : option N) (n : node) (bc : bool * node) : list write :=
  let '(inlist, c) := bc in
  WCa (nid c) (nid n) ::
  (if inlist then
     if nstmt n then [WPs (nid c) (nid n)]
     else if nstmt c then match cur with Some p => [WPs (nid c) p] | None => [] end else []
   else match inner cur n with Some s => [WCsSet (nid c) s] | None => [] end).
Lemma visit_unfold cur n :
  visit cur n = (match inner cur n with Some c => [WCsDefault (nid n) c] | None => [] end) ++ [WNode (nid n)]
                ++ flat_map (direct cur n) (nchildren n) ++ go_visit (inner cur n) (nchildren n).
Proof. destruct n. reflexivity. Qed.
Lemma in_visit cur n w : In w (visit cur n) <->
  (exists c, inner cur n = Some c /\ w = WCsDefault (nid n) c) \/ w = WNode (nid n) \/
  (exists bc, In bc (nchildren n) /\ In w (direct cur n bc)) \/
  (exists bc, In bc (nchildren n) /\ In w (visit (inner cur n) (snd bc))).
Proof.
  rewrite visit_unfold. split; intros H.
  - apply in_app_or in H as [H|H].
    { left. destruct (inner cur n) as [c|]; [destruct H as [<-|[]]; exists c; split; reflexivity|destruct H]. }
    right. apply in_app_or in H as [[<-|[]]|H]; [left; reflexivity|right].
    apply in_app_or in H as [H|H]; [left; apply in_flat_map|right; apply in_go_visit]; exact H.
  - apply in_or_app. destruct H as [(c & -> & ->)|H]; [left; left; reflexivity|right].
    apply in_or_app. destruct H as [->|H]; [left; left; reflexivity|right].
    apply in_or_app. destruct H as [H|H]; [left; apply in_flat_map|right; apply in_go_visit]; exact H.
Qed.

(* well-formed: a child that sits in a single-node field is not a statement (Python's grammar) *)
Fixpoint wf (n : node) : Prop :=
  match n with Nd _ _ cs => (fix go (l : list (bool * node)) : Prop :=
      match l with [] => True | (inli, c) :: l' => (inli = false -> nstmt c = false) /\ wf c /\ go l' end) cs end.
Lemma wf_child n bc : wf n -> In bc (nchildren n) -> (fst bc = false -> nstmt (snd bc) = false) /\ wf (snd bc).
Proof.
  destruct n as [st i cs]. cbn. induction cs as [|[b c] cs IH]; intros H Hin; [destruct Hin|]. destruct H as (H1 & H2 & H3).
  destruct Hin as [<-|Hin]; cbn; auto.
Qed.

Definition contains (t : node) (s k : N) : Prop :=
  exists S, In S (nodes t) /\ nstmt S = true /\ nid S = s /\ exists K, In K (nodes S) /\ nid K = k.
Definition cs_write (w : write) : option (N * N) :=
  match w with WCsDefault k s | WCsSet k s => Some (k, s) | _ => None end.

Lemma direct_entry cur n bc w k v : In w (direct cur n bc) -> cs_write w = Some (k, v) \/ w = WPs k v ->
  nid (snd bc) = k /\ inner cur n = Some v.
Proof.
  destruct bc as [b c]. cbn [direct]. unfold inner. intros [<-|Hin] Hw; [destruct Hw; discriminate|]. destruct b.
  - destruct (nstmt n); [destruct Hin as [<-|[]]; destruct Hw as [[=]|[= <- <-]]; split; reflexivity|].
    destruct (nstmt c); [|destruct Hin]. destruct cur; [|destruct Hin].
    destruct Hin as [<-|[]]. destruct Hw as [[=]|[= <- <-]]. split; reflexivity.
  - destruct (if nstmt n then Some (nid n) else cur); [|destruct Hin].
    destruct Hin as [<-|[]]. destruct Hw as [[= <- <-]|[=]]. split; reflexivity.
Qed.

(* Where a table entry comes from (W w k v: w enters v under k).  Its value is the statement current among the children of the
   node that writes it: the inherited one, or the nearest statement S of the tree at or above that node; R says how the key
   lies to that node, hence to S. *)
Lemma written_under (W : write -> N -> N -> Prop) (R : node -> N -> Prop) :
  (forall n bc k, In bc (nchildren n) -> R (snd bc) k -> R n k) ->
  (forall cur n w k v, W w k v -> In w (visit cur n) ->
     (inner cur n = Some v /\ R n k) \/ exists bc, In bc (nchildren n) /\ In w (visit (inner cur n) (snd bc))) ->
  forall n cur w k v, W w k v -> In w (visit cur n) ->
  (cur = Some v /\ R n k) \/ exists S, In S (nodes n) /\ nstmt S = true /\ nid S = v /\ R S k.
Proof.
  intros Rup Hhere n. induction n as [n IH] using node_ind2. intros cur w k v Hw Hin.
  assert (H : (inner cur n = Some v /\ R n k) \/ exists S, In S (nodes n) /\ nstmt S = true /\ nid S = v /\ R S k).
  { destruct (Hhere cur n w k v Hw Hin) as [H|(bc & Hbc & Hin')]; [left; exact H|].
    destruct (IH bc Hbc _ w k v Hw Hin') as [[Hc HR]|(S & HS & H)].
    - left. split; [exact Hc|exact (Rup n bc k Hbc HR)].
    - right. exists S. split; [exact (nodes_kid n bc S Hbc HS)|exact H]. }
  destruct H as [[Hc HR]|H]; [|right; exact H]. unfold inner in Hc. destruct (nstmt n) eqn:Hs; [|left; split; assumption].
  right. injection Hc as <-. exists n. split; [apply nodes_self|]. repeat split; [exact Hs|exact HR].
Qed.

Lemma cs_writes_contain : forall n cur w k s, In w (visit cur n) -> cs_write w = Some (k, s) ->
  (cur = Some s /\ exists K, In K (nodes n) /\ nid K = k) \/ contains n s k.
Proof.
  intros n cur w k s Hin Hw. revert Hw Hin.
  apply (written_under (fun w k s => cs_write w = Some (k, s)) (fun n k => exists K, In K (nodes n) /\ nid K = k)); clear.
  - intros n bc k Hbc (K & HK & Hk). exists K. split; [exact (nodes_kid n bc K Hbc HK)|exact Hk].
  - intros cur n w k s Hw Hin. apply in_visit in Hin as [(c & Hc & ->)|[->|[(bc & Hbc & Hin)|H]]].
    + injection Hw as <- <-. left. split; [exact Hc|]. exists n. split; [apply nodes_self|reflexivity].
    + discriminate.
    + destruct (direct_entry cur n bc w k s Hin (or_introl Hw)) as [Hk Hc]. left. split; [exact Hc|].
      exists (snd bc). split; [exact (nodes_kid n bc _ Hbc (nodes_self _))|exact Hk].
    + right. exact H.
Qed.
Lemma cs_writes_ok : forall n cur w k s, wf n -> In w (visit cur n) -> cs_write w = Some (k, s) ->
  (cur = Some s /\ exists K, In K (nodes n) /\ nid K = k) \/ contains n s k.
Proof. intros n cur w k s _. apply cs_writes_contain. Qed.

Lemma cs_lookup_some ws : forall k acc, acc <> None -> cs_lookup ws k acc <> None.
Proof.
  induction ws as [|w ws IH]; intros k acc Ha; cbn; auto.
  destruct w; auto; destruct (N.eqb k0 k); auto; apply IH; try discriminate. destruct acc; [discriminate|contradiction].
Qed.
Lemma cs_lookup_app ws1 ws2 k acc : cs_lookup (ws1 ++ ws2) k acc = cs_lookup ws2 k (cs_lookup ws1 k acc).
Proof. revert acc. induction ws1 as [|w ws1 IH]; intros acc; cbn; auto. destruct w; auto. Qed.

Lemma cs_lookup_written ws k acc s : cs_lookup ws k acc = Some s ->
  acc = Some s \/ exists w, In w ws /\ cs_write w = Some (k, s).
Proof.
  induction ws as [|w ws IH] using rev_ind; intros H; [left; exact H|]. rewrite cs_lookup_app in H.
  assert (Hw : cs_write w = Some (k, s) \/ cs_lookup ws k acc = Some s).
  { destruct w as [j|j v|j v|j v|j v]; cbn in H; try (right; exact H); destruct (N.eqb_spec j k) as [->|_]; try (right; exact H).
    - destruct (cs_lookup ws k acc); [right; exact H|left; injection H as ->; reflexivity].
    - left. injection H as ->. reflexivity. }
  destruct Hw as [Hw|Hw].
  - right. exists w. split; [apply in_or_app; right; left; reflexivity|exact Hw].
  - destruct (IH Hw) as [E|(w' & Hin & Hc)]; [left; exact E|right; exists w'; split; [apply in_or_app; left; exact Hin|exact Hc]].
Qed.

Theorem containing_stmt_contains t k s : wf t -> cs_lookup (visit None t) k None = Some s -> contains t s k.
Proof.
  intros _ H. destruct (cs_lookup_written _ _ _ _ H) as [[=]|(w & Hw & Hc)].
  destruct (cs_writes_contain t None w k s Hw Hc) as [[[=] _]|Hcon]. exact Hcon.
Qed.

Lemma ps_lookup_written ws : forall k acc p, ps_lookup ws k acc = Some p -> acc = Some p \/ In (WPs k p) ws.
Proof.
  induction ws as [|w ws IH]; intros k acc p H; [left; exact H|].
  destruct w as [j|j v|j v|j v|j v]; apply IH in H as [H|H]; try (right; right; exact H); try (left; exact H).
  destruct (N.eqb_spec j k) as [->|_]; [injection H as ->; right; left; reflexivity|left; exact H].
Qed.

Definition properly_contains (t : node) (p k : N) : Prop :=
  exists P, In P (nodes t) /\ nstmt P = true /\ nid P = p /\
    exists bc K, In bc (nchildren P) /\ In K (nodes (snd bc)) /\ nid K = k.

Lemma ps_writes_ok : forall n cur k p, In (WPs k p) (visit cur n) ->
  (cur = Some p /\ exists bc K, In bc (nchildren n) /\ In K (nodes (snd bc)) /\ nid K = k) \/ properly_contains n p k.
Proof.
  intros n cur k p.
  apply (written_under (fun w k p => w = WPs k p) (fun n k => exists bc K, In bc (nchildren n) /\ In K (nodes (snd bc)) /\ nid K = k));
    [clear|clear|reflexivity].
  - intros n bc k Hbc (bc' & K & Hbc' & HK & Hk). exists bc, K. split; [exact Hbc|]. split; [exact (nodes_kid _ bc' K Hbc' HK)|exact Hk].
  - intros cur n w k p -> Hin. apply in_visit in Hin as [(c & _ & [=])|[[=]|[(bc & Hbc & Hin)|H]]]; [|right; exact H].
    destruct (direct_entry cur n bc _ k p Hin (or_intror eq_refl)) as [Hk Hc]. left. split; [exact Hc|].
    exists bc, (snd bc). split; [exact Hbc|]. split; [apply nodes_self|exact Hk].
Qed.

Theorem parent_stmt_contains t k p : ps_lookup (visit None t) k None = Some p -> properly_contains t p k.
Proof.
  intros H. apply ps_lookup_written in H as [[=]|H]. destruct (ps_writes_ok t None k p H) as [[[=] _]|Hcon]. exact Hcon.
Qed.

Theorem every_node_registered : forall t cur n, In n (nodes t) -> In (WNode (nid n)) (visit cur t).
Proof.
  intros t. induction t as [t IH] using node_ind2. intros cur n Hn. apply in_visit.
  apply in_nodes in Hn as [<-|(bc & Hbc & Hn)]; [right; left; reflexivity|].
  right. right. right. exists bc. split; [exact Hbc|exact (IH bc Hbc _ n Hn)].
Qed.
