(* Soundness of the generic bottom-up erasure `erase_gen pst` for EVERY semantics of the generic tree and every
   equivalence on denotation sequences under which each root rewrite of `pst` is valid (EraseSound.bottom_up_sound
   at `erase_gen pst`); instantiated with the K-erasure `postk K` and an equivalence "same behaviour, same sub-stream of the
   kept events" it gives the certificate theorems of C03 / C05: two rewriter outputs whose K-erasures coincide deliver the
   same K-stream.
   The laws are Section hypotheses: after the section they are explicit premises (no axioms). *)
From Coq Require Import List ZArith NArith Bool.
Import ListNotations.
From PyccoloV Require Import gen.PyAst gen.Ids gen.Events model.Tree model.Erase model.Prune proofs.EraseSound proofs.ListFacts.

Definition erase_gen_list pst : list tree -> option (list tree) := inner_list (erase_gen pst).
Definition erase_gen_fields pst : list (list tree) -> option (list (list tree)) := inner_fields (erase_gen pst).
Lemma erase_gen_T pst k sc fs :
  erase_gen pst (T k sc fs) = match erase_gen_fields pst fs with Some fs' => pst k sc fs' | None => None end.
Proof. reflexivity. Qed.

Lemma trees_eqb_eq : forall a b, trees_eqb a b = true -> a = b.
Proof. intros a. apply (list_eqb_eq tree_eqb), Forall_forall. intros x _. apply tree_eqb_eq. Qed.

Section Gen.
  Variable D : Type.
  Variable dnone : D.
  Variable sem : N -> list scalar -> list (list D) -> D.
  Notation den := (den D dnone sem).
  Variable eqv : list D -> list D -> Prop.
  Hypothesis eqv_refl : forall l, eqv l l.
  Hypothesis eqv_sym : forall a b, eqv a b -> eqv b a.
  Hypothesis eqv_trans : forall a b c, eqv a b -> eqv b c -> eqv a c.
  Hypothesis eqv_app : forall a a' b b', eqv a a' -> eqv b b' -> eqv (a ++ b) (a' ++ b').
  Hypothesis sem_cong : forall k sc fs fs', Forall2 eqv fs fs' -> eqv [sem k sc fs] [sem k sc fs'].
  Variable pst : N -> list scalar -> list (list tree) -> option (list tree).
  (* every root rewrite is valid in the semantics *)
  Hypothesis pst_law : forall k sc fs l, pst k sc fs = Some l -> eqv [den (T k sc fs)] (map den l).

  Theorem same_erasure_equiv t1 t2 a b :
    erase_gen pst t1 = Some a -> erase_gen pst t2 = Some b -> trees_eqb a b = true -> eqv [den t1] [den t2].
  Proof.
    intros H1 H2 E. apply trees_eqb_eq in E. subst b.
    pose proof (bottom_up_sound D dnone sem eqv eqv_refl eqv_trans eqv_app sem_cong (erase_gen pst) pst eq_refl (erase_gen_T pst) pst_law) as S.
    eapply eqv_trans; [apply (S t1 a H1)|]. apply eqv_sym. apply (S t2 a H2).
  Qed.
End Gen.

Theorem check_proj_sound :
  forall (D : Type) (dnone : D) (sem : N -> list scalar -> list (list D) -> D) (K : list N) (eqvK : list D -> list D -> Prop),
  (forall l, eqvK l l) ->
  (forall a b, eqvK a b -> eqvK b a) ->
  (forall a b c, eqvK a b -> eqvK b c -> eqvK a c) ->
  (forall a a' b b', eqvK a a' -> eqvK b b' -> eqvK (a ++ b) (a' ++ b')) ->
  (forall k sc fs fs', Forall2 eqvK fs fs' -> eqvK [sem k sc fs] [sem k sc fs']) ->
  (forall k sc fs l, postk K k sc fs = Some l -> eqvK [den D dnone sem (T k sc fs)] (map (den D dnone sem) l)) ->
  forall out1 out2, check_proj K out1 out2 = true -> eqvK [den D dnone sem out1] [den D dnone sem out2].
Proof.
  intros D dnone sem K eqvK Hr Hs Ht Ha Hc Hl out1 out2 H. unfold check_proj, erasek in H.
  destruct (erase_gen (postk K) out1) as [a|] eqn:E1; [|discriminate].
  destruct (erase_gen (postk K) out2) as [b|] eqn:E2; [|discriminate].
  exact (same_erasure_equiv D dnone sem eqvK Hr Hs Ht Ha Hc (postk K) Hl out1 out2 a b E1 E2 H).
Qed.

(* the rewritten tree contains emission sites only for allowed events *)
Theorem check_only_subscribed_sound subscribed out :
  check_only_subscribed subscribed out = true ->
  forall ev nid, In (ev, nid) (sites out) -> site_allowed subscribed ev = true.
Proof.
  unfold check_only_subscribed. rewrite forallb_forall. intros H ev nid Hin. exact (H (ev, nid) Hin).
Qed.

Lemma kept_sites_all K out : forallb (fun s => mem (fst s) K) (sites out) = true -> kept_sites K out = sites out.
Proof. intros H. apply filter_all. now apply forallb_forall. Qed.
