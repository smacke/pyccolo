From Coq Require Import List NArith Bool Arith.
Import ListNotations.
From PyccoloV Require Import model.Ctx model.Decor proofs.CtxProofs.

Lemma wf_wrap n ts body : Forall (fun t => t < n) ts -> wf_items n body -> wf_items n (wrap ts body).
Proof.
  induction 1 as [|t ts Ht _ IH]; intros Hb; cbn [wrap]; [exact Hb|].
  cbn [wf_items wf_item]. rewrite wf_items_go. auto.
Qed.

(* whatever the function does - return or raise - and from whatever state it is called (inside other contexts too), the
   call leaves the tracer stack, every tracer's flags, the hooks and the interpreter's trace function as they were *)
Theorem call_scoped cfg ts body s sp : Inv s -> Rel s sp -> Forall (fun t => t < ntr s) ts -> wf_items (ntr s) body ->
  let s' := snd (fst (run_items cfg (wrap ts body) s)) in core_eq s s' /\ Inv s'.
Proof.
  intros I R Ht Hb. now destruct (all_items_good cfg (wrap ts body) s sp I R (wf_wrap _ _ _ Ht Hb)) as [_ _ C I'].
Qed.

(* the reference for the nested contexts: every tracer of the list gets `enabled` pushed *)
Lemma spec_wrap ts : forall body sp,
  spec_items (wrap ts body) sp = spec_items body (fold_left (fun sp t => spec_push sp t true) ts sp).
Proof.
  induction ts as [|t ts IH]; intros body sp; [reflexivity|].
  cbn [wrap fold_left]. unfold spec_items at 1. cbn [spec_items_of spec_item negb].
  fold spec_items. rewrite IH.
  destruct (spec_items body _) as [r lg]. destruct r; [reflexivity|]. now rewrite app_nil_r.
Qed.

Lemma length_spec_push sp t b : length (spec_push sp t b) = length sp.
Proof. unfold spec_push. apply length_set_nth. Qed.
Lemma fires_push_same sp t b : t < length sp -> spec_fires (spec_push sp t b) t = b.
Proof. intros H. unfold spec_fires, spec_push. now rewrite nth_set_nth_same. Qed.
Lemma fires_push_other sp t u b : t <> u -> spec_fires (spec_push sp t b) u = spec_fires sp u.
Proof. intros H. unfold spec_fires, spec_push. now rewrite nth_set_nth_other. Qed.

Lemma fires_fold ts : forall sp u, Forall (fun t => t < length sp) ts ->
  spec_fires (fold_left (fun sp t => spec_push sp t true) ts sp) u = memb u ts || spec_fires sp u.
Proof.
  induction ts as [|t ts IH]; intros sp u Ht; [reflexivity|].
  inversion Ht as [|? ? H1 H2]; subst. cbn [fold_left memb existsb].
  rewrite IH by (rewrite length_spec_push; exact H2).
  destruct (Nat.eqb_spec u t) as [->|N]; [now rewrite fires_push_same, orb_true_r|now rewrite fires_push_other by congruence].
Qed.
Lemma length_fold ts : forall sp, length (fold_left (fun sp t => spec_push sp t true) ts sp) = length sp.
Proof. induction ts as [|t ts IH]; intros sp; [reflexivity|]. cbn [fold_left]. now rewrite IH, length_spec_push. Qed.

(* during the call the function body's events reach exactly the tracers of the decorator's list (plus whoever was
   already receiving function-body events), whether the body then returns or raises *)
Theorem call_delivery cfg ts raises s sp : Inv s -> Rel s sp -> Forall (fun t => t < ntr s) ts -> length sp = ntr s ->
  view_log (ntr s) (snd (run_items cfg (wrap ts (fbody raises)) s)) =
    [(KFunc, map (fun u => memb u ts || spec_fires sp u) (seq 0 (ntr s)))].
Proof.
  intros I R Ht Hl.
  assert (Hb : wf_items (ntr s) (fbody raises)) by (destruct raises; cbn; repeat split; discriminate).
  rewrite (ag_log _ _ _ (all_items_good cfg _ s sp I R (wf_wrap _ _ _ Ht Hb))), spec_wrap.
  set (sp' := fold_left _ ts sp).
  assert (E : snd (spec_items (fbody raises) sp') = [(KFunc, map (spec_fires sp') (seq 0 (length sp')))]) by now destruct raises.
  rewrite E. unfold sp'. rewrite length_fold, Hl. do 2 f_equal. apply map_ext. intros u. apply fires_fold. now rewrite Hl.
Qed.

Lemma select_first name pre c post :
  (forall x, In (Some x) pre -> x <> name) -> c = name -> select name (pre ++ Some c :: post) = Some (length pre).
Proof.
  intros Hpre ->. unfold select. change (length pre) with (0 + length pre). generalize 0.
  induction pre as [|x pre IH]; intros i; cbn.
  - now rewrite N.eqb_refl, Nat.add_0_r.
  - rewrite Nat.add_succ_r. specialize (IH (fun y Hy => Hpre y (or_intror Hy)) (S i)).
    destruct x as [x|]; [|exact IH]. destruct (N.eqb_spec x name) as [E|]; [|exact IH].
    exfalso. now apply (Hpre x (or_introl eq_refl)).
Qed.

(* the objects the search of find_function_code can reach: constants of the level, or of generic-parameter objects among them, and so on *)
Inductive greach : list cobj -> cobj -> Prop :=
  | gr_here level c : In c (next_consts level) -> greach level c
  | gr_down level c : greach (filter co_generic (next_consts level)) c -> greach level c.

(* what is found carries the name and is reachable through type-parameter scopes only: never a function nested in an
   ordinary function (the decorated function's own nested function of the same name) *)
Theorem find_code_sound fuel : forall level name c, find_code fuel level name = Some c -> co_name c = name /\ greach level c.
Proof.
  induction fuel as [|k IH]; intros level name c H; [discriminate|].
  cbn [find_code] in H. destruct level as [|l0 ls]; [discriminate|].
  destruct (find (fun c => N.eqb (co_name c) name) (next_consts (l0 :: ls))) as [c0|] eqn:E.
  - inversion H; subst c0. apply find_some in E as [Hin Hn]. apply N.eqb_eq in Hn. split; [exact Hn|now apply gr_here].
  - destruct (IH _ _ _ H) as [Hn Hr]. split; [exact Hn|now apply gr_down].
Qed.
(* nearest to the top: a constant of the level with the name wins over anything deeper, and it is the first such *)
Theorem find_code_top k level name c : level <> [] ->
  find (fun c => N.eqb (co_name c) name) (next_consts level) = Some c -> find_code (S k) level name = Some c.
Proof. intros Hne E. cbn [find_code]. destruct level; [congruence|]. now rewrite E. Qed.
(* a function with type parameters: its code sits in the <generic parameters> object, one level down *)
Theorem find_code_generic k m name g c :
  find (fun c => N.eqb (co_name c) name) (co_consts m) = None ->
  filter co_generic (co_consts m) = [g] ->
  find (fun c => N.eqb (co_name c) name) (co_consts g) = Some c ->
  find_code (S (S k)) [m] name = Some c.
Proof.
  intros E1 E2 E3. cbn [find_code next_consts flat_map]. rewrite app_nil_r, E1, E2. cbn [next_consts flat_map]. rewrite app_nil_r, E3. reflexivity.
Qed.
