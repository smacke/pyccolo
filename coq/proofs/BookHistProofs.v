From Coq Require Import List NArith Bool.
Import ListNotations.
From PyccoloV Require Import model.BookHist proofs.ListFacts.

Lemma mem_In k l : mem k l = true <-> In k l.
Proof. apply existsb_eqb_In. Qed.

Lemma lookup_has_line l t : forall acc, has_line l t = true -> lookup l t acc = lookup l t None.
Proof.
  induction t as [|[l' i] t IH]; intros acc H; [discriminate|].
  cbn [lookup]. cbn in H. destruct (N.eqb l' l) eqn:E.
  - reflexivity.
  - cbn in H. apply IH. exact H.
Qed.

Section RemoveFirst.
Variable gc : bool.
Notation step := (step true true gc).
Notation run := (run true true gc).

(* the ids of a new bookkeeper are ids of live objects not yet in the tables; its module id is not the module id of any
   bookkeeper whose code can still run *)
Definition fresh (s : st) (o : op) : Prop :=
  (forall k, In k (b_ids (o_bk o)) -> gn s k = false) /\
  (forall q b, In b (valid s q) -> b_mid b <> b_mid (o_bk o)).

Definition entries_ok (s : st) (b : bk) : Prop :=
  (forall k, In k (b_ids b) -> gn s k = true) /\
  (forall l, has_line l (b_lines b) = true -> gl s (b_mid b) l = lookup l (b_lines b) None).

(* inv_sep (bookkeepers of different paths share no node id and no module id) is there because collecting the old bookkeeper
   of one path must not touch the entries of the other paths: remove_keeps *)
Record Inv (s : st) : Prop := {
  inv_ok : forall q b, In b (valid s q) -> entries_ok s b;
  inv_cur : forall q, cur s q = hd_error (valid s q);
  inv_sep : forall q b q' b', In b (valid s q) -> In b' (valid s q') -> q <> q' ->
            (forall k, In k (b_ids b) -> In k (b_ids b') -> False) /\ b_mid b <> b_mid b' }.

Lemma inv0 : Inv st0.
Proof. split; cbn; intros; try contradiction; reflexivity. Qed.

Lemma add_ok s n : entries_ok (add s n (b_mid n)) n.
Proof.
  split.
  - intros k Hk. cbn. apply mem_In in Hk. rewrite Hk. apply orb_true_r.
  - intros l Hl. cbn. rewrite N.eqb_refl. apply lookup_has_line. exact Hl.
Qed.

Lemma add_keeps s n b : b_mid b <> b_mid n -> entries_ok s b -> entries_ok (add s n (b_mid n)) b.
Proof.
  intros Hm [H1 H2]. split.
  - intros k Hk. cbn. rewrite (H1 k Hk). reflexivity.
  - intros l Hl. cbn. destruct (N.eqb_spec (b_mid b) (b_mid n)) as [E|_]; [contradiction|]. apply H2. exact Hl.
Qed.

Lemma remove_keeps s ob mid b : b_mid b <> mid -> (forall k, In k (b_ids b) -> In k (b_ids ob) -> False) ->
  entries_ok s b -> entries_ok (remove s ob mid) b.
Proof.
  intros Hm Hd [H1 H2]. split.
  - intros k Hk. cbn. rewrite (H1 k Hk). cbn. destruct (mem k (b_ids ob)) eqn:E; [|reflexivity].
    apply mem_In in E. exfalso. exact (Hd k Hk E).
  - intros l Hl. cbn. destruct (N.eqb_spec (b_mid b) mid) as [E|_]; [contradiction|]. cbn. apply H2. exact Hl.
Qed.

Definition before (s : st) (o : op) : st :=
  match cur s (o_path o) with Some ob => if collects gc (o_kind o) then remove s ob (b_mid ob) else s | None => s end.
Lemma step_eq s o : step s o =
  {| cur := fun q => if N.eqb q (o_path o) then Some (o_bk o) else cur s q;
     valid := fun q => if N.eqb q (o_path o) then (if collects gc (o_kind o) then [o_bk o] else o_bk o :: valid s q) else valid s q;
     gn := gn (add (before s o) (o_bk o) (b_mid (o_bk o)));
     gl := gl (add (before s o) (o_bk o) (b_mid (o_bk o))) |}.
Proof. unfold model.BookHist.step, before. destruct (cur s (o_path o)); [destruct (collects gc (o_kind o))|]; reflexivity. Qed.

Lemma step_valid_in s o q b : In b (valid (step s o) q) ->
  (q = o_path o /\ b = o_bk o) \/ (In b (valid s q) /\ (q = o_path o -> collects gc (o_kind o) = false)).
Proof.
  rewrite step_eq. cbn [valid]. destruct (N.eqb_spec q (o_path o)) as [E|Hne].
  - destruct (collects gc (o_kind o)).
    + intros [<-|[]]. left. split; [exact E|reflexivity].
    + intros [<-|H]; [left; split; [exact E|reflexivity]|right; split; [exact H|reflexivity]].
  - intros H. right. split; [exact H|intros E; contradiction].
Qed.

Lemma step_inv s o : Inv s -> fresh s o -> Inv (step s o).
Proof.
  intros [Hok Hcur Hsep] [Hf1 Hf2].
  assert (Hnew : forall q b, In b (valid s q) -> (forall i, In i (b_ids (o_bk o)) -> In i (b_ids b) -> False) /\ b_mid (o_bk o) <> b_mid b).
  { intros q b Hb. split; [|intros E; exact (Hf2 q b Hb (eq_sym E))].
    intros i Hi Hi'. pose proof (Hf1 i Hi) as F. rewrite (proj1 (Hok q b Hb) i Hi') in F. discriminate F. }
  split.
  - intros q b Hb. apply step_valid_in in Hb as [[_ ->]|[Hb Hq]]; rewrite step_eq.
    { exact (add_ok (before s o) (o_bk o)). }
    apply (add_keeps (before s o) (o_bk o) b); [intros E; exact (proj2 (Hnew q b Hb) (eq_sym E))|].
    unfold before. destruct (cur s (o_path o)) as [ob|] eqn:Hold; [destruct (collects gc (o_kind o))|]; try exact (Hok q b Hb).
    (* the old bookkeeper of the path is collected: b sits at another path *)
    assert (Hob : In ob (valid s (o_path o))).
    { specialize (Hcur (o_path o)). rewrite Hold in Hcur. destruct (valid s (o_path o)); [discriminate|]. injection Hcur as <-. left. reflexivity. }
    assert (Hne : q <> o_path o) by (intros E; discriminate (Hq E)).
    destruct (Hsep q b _ ob Hb Hob Hne) as [D M]. exact (remove_keeps s ob _ b M D (Hok q b Hb)).
  - intros q. rewrite step_eq. cbn [cur valid]. destruct (N.eqb q (o_path o)); [destruct (collects gc (o_kind o)); reflexivity|apply Hcur].
  - intros q b q' b' Hb Hb' Hne.
    apply step_valid_in in Hb as [[-> ->]|[Hb _]]; apply step_valid_in in Hb' as [[-> ->]|[Hb' _]].
    + contradiction.
    + exact (Hnew q' b' Hb').
    + destruct (Hnew q b Hb) as [D M]. split; [intros i Hi Hi'; exact (D i Hi' Hi)|intros E; exact (M (eq_sym E))].
    + exact (Hsep q b q' b' Hb Hb' Hne).
Qed.

Fixpoint hist_fresh (ops : list op) (s : st) : Prop :=
  match ops with [] => True | o :: ops' => fresh s o /\ hist_fresh ops' (step s o) end.

Theorem history_entries_valid ops : forall s, Inv s -> hist_fresh ops s ->
  forall q b, In b (valid (run ops s) q) -> entries_ok (run ops s) b.
Proof.
  induction ops as [|o ops IH]; intros s HI HF q b Hb.
  - exact (inv_ok s HI q b Hb).
  - destruct HF as [Hf HF]. cbn [model.BookHist.run fold_left] in *. exact (IH _ (step_inv s o HI Hf) HF q b Hb).
Qed.

(* the module id is the id of one of the bookkeeper's own nodes (the registered copy of the tree): then "its module id is
   not the module id of any bookkeeper whose code can still run" need not be assumed, it follows from the ids *)
Definition wf_bk (b : bk) : Prop := In (b_mid b) (b_ids b).
Definition fresh_ids (s : st) (o : op) : Prop := (forall k, In k (b_ids (o_bk o)) -> gn s k = false) /\ wf_bk (o_bk o).
Definition all_wf (s : st) : Prop := forall q b, In b (valid s q) -> wf_bk b.

Lemma fresh_of_ids s o : Inv s -> all_wf s -> fresh_ids s o -> fresh s o.
Proof.
  intros HI HW [Hf Hw]. split; [exact Hf|]. intros q b Hb E.
  pose proof (proj1 (inv_ok s HI q b Hb) (b_mid b) (HW q b Hb)) as H1. rewrite E in H1.
  rewrite (Hf _ Hw) in H1. discriminate.
Qed.
Lemma step_all_wf s o : all_wf s -> wf_bk (o_bk o) -> all_wf (step s o).
Proof. intros HW Hw q b Hb. apply step_valid_in in Hb as [[_ ->]|[Hb _]]; [exact Hw|exact (HW q b Hb)]. Qed.
Fixpoint hist_fresh_ids (ops : list op) (s : st) : Prop :=
  match ops with [] => True | o :: ops' => fresh_ids s o /\ hist_fresh_ids ops' (step s o) end.
Lemma hist_fresh_of_ids ops : forall s, Inv s -> all_wf s -> hist_fresh_ids ops s -> hist_fresh ops s.
Proof.
  induction ops as [|o ops IH]; intros s HI HW H; [exact I|]. destruct H as [Hf H].
  pose proof (fresh_of_ids s o HI HW Hf) as F. split; [exact F|].
  apply IH; [exact (step_inv s o HI F)|exact (step_all_wf s o HW (proj2 Hf))|exact H].
Qed.
Theorem history_entries_valid_ids ops : hist_fresh_ids ops st0 ->
  forall q b, In b (valid (run ops st0) q) -> entries_ok (run ops st0) b.
Proof.
  intros H. apply (history_entries_valid ops st0 inv0). apply hist_fresh_of_ids; [exact inv0| |exact H].
  intros q b [].
Qed.
End RemoveFirst.

(* the other order (add the new bookkeeper, then remove the old one's keys from the line table of the NEW module id):
   a file instrumented twice loses every line the two versions share *)
Example remove_after_add_refuted :
  let b1 := {| b_mid := 1; b_ids := [10; 11]; b_lines := [(1, 11)] |}%N in
  let b2 := {| b_mid := 2; b_ids := [20; 21]; b_lines := [(1, 21)] |}%N in
  let s := model.BookHist.run false false true [ {| o_path := 0%N; o_kind := KModule; o_bk := b1 |}; {| o_path := 0%N; o_kind := KModule; o_bk := b2 |} ] st0 in
  valid s 0%N = [b2] /\ gl s 2%N 1%N = None.
Proof. vm_compute. split; reflexivity. Qed.

(* removal under the NEW module id (ast_rewriter.py passing `module_id`; repaired by dbf4257): the line table of the replaced tree survives whole *)
Example remove_new_mid_leaks :
  let b1 := {| b_mid := 10; b_ids := [10; 11]; b_lines := [(1, 11)] |}%N in
  let b2 := {| b_mid := 20; b_ids := [20; 21]; b_lines := [(2, 21)] |}%N in
  let ops := [ {| o_path := 0%N; o_kind := KModule; o_bk := b1 |}; {| o_path := 0%N; o_kind := KModule; o_bk := b2 |} ] in
  gl (model.BookHist.run true false true ops st0) 10%N 1%N = Some 11%N /\ gl (model.BookHist.run true true true ops st0) 10%N 1%N = None.
Proof. vm_compute. split; reflexivity. Qed.
