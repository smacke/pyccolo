(* Erasure on the fragment: erasing the output of the rewriter MODEL gives back the source, for every fragment program, every
   subscription set.  With the K-syn correspondence (model output = real rewriter output, tree equality) this is the
   unbounded counterpart of the per-program erasure certificates of C01.
   It is the case "no event kept" of a statement about any bottom-up erasure `erase_gen pst` whose root rewrite keeps the
   sites of a subscription `ck` and erases the others (root_laws): erasing the rewrite for any larger subscription gives the
   canonical form for `ck` (Section Proj).  `post` is such a root rewrite for the empty subscription, whose canonical form
   is the source; RwFragProj instantiates the same statement with `postk K`. *)
From Coq Require Import List ZArith NArith Bool Lia.
Import ListNotations.
From PyccoloV Require Import gen.PyAst gen.Ids gen.Events model.Tree model.Erase model.Prune model.RwFrag
  proofs.EraseSound proofs.PruneSound.
Local Open Scope N_scope.

Section Gen.
  Variable pst : N -> list scalar -> list (list tree) -> option (list tree).
  Notation eg := (erase_gen pst).
  Notation egl := (erase_gen_list pst).
  Notation egf := (erase_gen_fields pst).

  Lemma egl_eq x l : egl (x :: l) = match eg x, egl l with Some a, Some b => Some (a ++ b) | _, _ => None end.
  Proof. reflexivity. Qed.
  Lemma egf_eq f fs : egf (f :: fs) = match egl f, egf fs with Some a, Some b => Some (a :: b) | _, _ => None end.
  Proof. reflexivity. Qed.

  Lemma egl_nil : egl [] = Some [].
  Proof. reflexivity. Qed.
  Lemma egl_cons_gen x a l b : eg x = Some a -> egl l = Some b -> egl (x :: l) = Some (a ++ b).
  Proof. intros Hx Hl. now rewrite egl_eq, Hx, Hl. Qed.
  Lemma egl_cons x y l l' : eg x = Some [y] -> egl l = Some l' -> egl (x :: l) = Some (y :: l').
  Proof. apply egl_cons_gen. Qed.
  Lemma egl_one x a : eg x = Some a -> egl [x] = Some a.
  Proof. intros H. rewrite <- (app_nil_r a). now apply egl_cons_gen. Qed.
  Lemma egl_app a a' b b' : egl a = Some a' -> egl b = Some b' -> egl (a ++ b) = Some (a' ++ b').
  Proof.
    intros Ha Hb. revert a' Ha. induction a as [|x a IH]; intros a' Ha.
    - injection Ha as <-. exact Hb.
    - rewrite egl_eq in Ha. destruct (eg x) as [u|] eqn:Hx; [|discriminate]. destruct (egl a) as [v|]; [|discriminate].
      injection Ha as <-. rewrite <- app_assoc. apply (egl_cons_gen x u (a ++ b)); [exact Hx|now apply IH].
  Qed.
  Lemma egl_id l : Forall (fun x => eg x = Some [x]) l -> egl l = Some l.
  Proof. induction 1; [reflexivity|]. now apply egl_cons. Qed.
  Lemma egf_nil : egf [] = Some [].
  Proof. reflexivity. Qed.
  Lemma egf_cons f f' fs fs' : egl f = Some f' -> egf fs = Some fs' -> egf (f :: fs) = Some (f' :: fs').
  Proof. intros Hf Hfs. now rewrite egf_eq, Hf, Hfs. Qed.
  Lemma egf_id fs : Forall (fun f => egl f = Some f) fs -> egf fs = Some fs.
  Proof. induction 1; [reflexivity|]. now apply egf_cons. Qed.
  Lemma eg_node k sc fs fs' : egf fs = Some fs' -> eg (T k sc fs) = pst k sc fs'.
  Proof. intros H. now rewrite erase_gen_T, H. Qed.
End Gen.
(* a node erases field by field, child by child: `eauto with eg` assembles the erased fields of a node from what is known
   of its children (hypotheses, and the few facts added to the database below); it searches for nothing else.  The depth it
   needs is the position of a field in the node + the position of a child in the field + the depth of the fact about the child
   (1 for a hypothesis, 3 through eg_kw): the default 5 covers nodes of two fields, 7 the nodes of three fields and the
   keyword list of an emit call *)
Create HintDb eg.
#[local] Hint Resolve egl_nil egl_cons egl_app egf_nil egf_cons : eg.

Lemma erase_is_gen : forall t, erase t = erase_gen post t.
Proof.
  induction t as [|k sc fs IH] using tree_ind2; [reflexivity|]. rewrite erase_T, erase_gen_T.
  replace (erase_gen_fields post fs) with (erase_fields fs); [reflexivity|].
  induction IH as [|f fs Hf _ IHfs]; [reflexivity|]. rewrite egf_eq, <- IHfs.
  replace (erase_gen_list post f) with (erase_list f); [reflexivity|].
  induction Hf as [|x f Hx _ IHf]; [reflexivity|]. now rewrite egl_eq, <- Hx, <- IHf.
Qed.

(* the wrappers that rwe and rws of model/RwFrag.v build inline, by name *)
Definition site (c : rcfg) (e : event) (n : N) (x : tree) : tree := wrap_if (sub c e) (emit_ret e n) x.
(* a deferred site: EMIT(evt, id, ret=TLAM(lambda ps: body))(args) when its event is subscribed, `node` otherwise *)
Definition deferred (c : rcfg) (e : event) (n : N) (thunk : tree) (args : list tree) (node : tree) : tree :=
  if sub c e then emit_deferred e n thunk args else node.
Definition binop_core (c : rcfg) (n : N) (op l r : tree) : tree :=
  deferred c E_before_binop n (tlam (args2 id_x id_y) (T kBinOp [] [[nm_load id_x]; [op]; [nm_load id_y]])) [l; r]
    (T kBinOp [] [[l]; [op]; [r]]).
Definition compare_core (c : rcfg) (n : N) (ops : list tree) (l x : tree) (xs : list tree) : tree :=
  deferred c E_before_compare n (tlam (args2 id_cmp_x id_cmp_y) (T kCompare [] [[nm_load id_cmp_x]; ops; nm_load id_cmp_y :: xs])) [l; x]
    (T kCompare [] [[l]; ops; x :: xs]).
Definition assign_rhs (c : rcfg) (n : N) (v : tree) : tree :=
  site c E_after_assign_rhs n (deferred c E_before_assign_rhs n (tlam no_args v) [] v).
Definition no_events : rcfg := {| sub := fun _ => false |}.

(* the inner loop of the model that threads the traversal index, by name (convertible with the anonymous ones in rwe) *)
Section IMap.
  Variable f : tree -> N -> tree.
  Fixpoint imap (u : list tree) (j : N) {struct u} : list tree :=
    match u with [] => [] | x :: u' => f x j :: imap u' (j + nsize x) end.
End IMap.
Lemma imap_id f u : (forall x, In x u -> forall j, f x j = x) -> forall j, imap f u j = u.
Proof.
  induction u as [|x u IH]; intros H j; [reflexivity|]. cbn [imap]. rewrite (H x (or_introl eq_refl)), IH; [reflexivity|].
  intros y Hy. apply H. now right.
Qed.
Definition compare_arg (c : rcfg) (x : tree) (j : N) : tree := site c E_compare_arg j (rwe c x j).

Section Rwe.
  Variable c : rcfg.
  Lemma rwe_leaf k n : rwe c (T k [] []) n = T k [] [].
  Proof.
    cbn [rwe]. destruct (N.eqb k kName); [reflexivity|]. destruct (N.eqb k kConstant); [reflexivity|].
    destruct (N.eqb k kBinOp); [reflexivity|]. destruct (N.eqb k kCompare); reflexivity.
  Qed.
  Lemma rwe_name sc fs n : rwe c (T kName sc fs) n = wrap_if (is_load fs && sub c E_load_name) (emit_ret E_load_name n) (T kName sc fs).
  Proof. exact eq_refl. Qed.
  Lemma rwe_constant v e n : const_event [v; SNone] = Some e ->
    rwe c (T kConstant [v; SNone] []) n = site c e n (T kConstant [v; SNone] []).
  Proof. intros H. destruct v; inversion H; reflexivity. Qed.
  Lemma rwe_binop l op r n :
    rwe c (T kBinOp [] [[l]; [op]; [r]]) n =
      site c E_after_binop n
        (binop_core c n op (site c E_left_binop_arg (n + 1) (rwe c l (n + 1)))
           (site c E_right_binop_arg (n + 1 + nsize l + nsize op) (rwe c r (n + 1 + nsize l + nsize op)))).
  Proof. exact eq_refl. Qed.
  Lemma rwe_compare l ops c0 cs n :
    rwe c (T kCompare [] [[l]; ops; c0 :: cs]) n =
      site c E_after_compare n
        (compare_core c n ops (site c E_left_compare_arg (n + 1) (rwe c l (n + 1))) (compare_arg c c0 (n + 1 + nsize l + nsizes ops))
           (imap (compare_arg c) cs (n + 1 + nsize l + nsizes ops + nsize c0))).
  Proof. exact eq_refl. Qed.
  (* the kinds left to generic_visit *)
  Lemma rwe_unaryop op a n :
    rwe c (T kUnaryOp [] [[op]; [a]]) n = T kUnaryOp [] [[rwe c op (n + 1)]; [rwe c a (n + 1 + nsizes [op])]].
  Proof. exact eq_refl. Qed.
  Lemma rwe_boolop op vs n :
    rwe c (T kBoolOp [] [[op]; vs]) n = T kBoolOp [] [[rwe c op (n + 1)]; imap (rwe c) vs (n + 1 + nsizes [op])].
  Proof. exact eq_refl. Qed.
  Lemma rwe_ifexp a b o n :
    rwe c (T kIfExp [] [[a]; [b]; [o]]) n =
      T kIfExp [] [[rwe c a (n + 1)]; [rwe c b (n + 1 + nsizes [a])]; [rwe c o (n + 1 + nsizes [a] + nsizes [b])]].
  Proof. exact eq_refl. Qed.
End Rwe.

(* the events whose emit call `post` leaves for the node above to decide (the Subscript, the guard test, the Expr) *)
Definition special_ev (e : event) : bool := is_subscript_before_event (ev_code e) || is_body_bracket_event (ev_code e).
(* the events whose sites carry a value and are decided where they stand *)
Definition value_ev (e : event) : bool :=
  negb (special_ev e) && negb (N.eqb (ev_code e) (ev_code E_after_stmt)) && negb (N.eqb (ev_code e) (ev_code E_before_stmt)).
(* `Expr v` is left in place by the erasures *)
Definition stays (v : tree) : bool :=
  match emit_parts v with
  | Some (ev, _, _, kws) => match kw_value id_ret kws with Some _ => negb (is_body_bracket_event ev) | None => false end
  | None => true
  end.
Record okres (v : tree) : Prop := {
  ok_tlam : tlam_parts v = None;                    (* as the ret= value of an emit it is not taken for a deferred thunk *)
  ok_guard : is_guard_test v = false;               (* as the test of an If / IfExp it is not taken for a guard *)
  ok_before : is_emit_of E_before_stmt v = false;   (* as the test of an If it is not taken for a before_stmt expansion *)
  ok_stays : stays v = true }.                      (* as the value of an Expr it is not taken for a statement-level emit *)

Lemma parts_not_call k sc fs : N.eqb k kCall = false -> tlam_parts (T k sc fs) = None /\ emit_parts (T k sc fs) = None.
Proof.
  intros H. unfold tlam_parts, emit_parts. split.
  all: repeat (match goal with |- context [match ?x with _ => _ end] => is_var x; destruct x end; try reflexivity).
  all: rewrite H; reflexivity.
Qed.
Lemma emit_parts_not_emit f args kws : name_is id_emit f = false -> emit_parts (T kCall [] [[f]; args; kws]) = None.
Proof.
  intros H. unfold emit_parts.
  destruct args as [|[k1 [|[] s1] f1|] [|[k2 [|n2 s2] f2|] rest]]; try reflexivity.
  all: rewrite H; now rewrite ?andb_false_r.
Qed.
Lemma name_is_false_kind x k sc fs : N.eqb k kName = false -> name_is x (T k sc fs) = false.
Proof. intros H. unfold name_is. destruct sc as [|[] ?]; try reflexivity. now rewrite H. Qed.
Lemma guard_test_other k sc fs : N.eqb k kName = false -> N.eqb k kBoolOp = false -> is_guard_test (T k sc fs) = false.
Proof.
  intros H1 H2. unfold is_guard_test. rewrite !name_is_false_kind by assumption. cbn [orb].
  destruct sc; [|reflexivity]. destruct fs as [|[|[ka ? ?|] [|? ?]] [|[|v ?] [|? ?]]]; try reflexivity. all: now rewrite H2.
Qed.

Lemma okres_not_call k sc fs : N.eqb k kCall = false -> is_guard_test (T k sc fs) = false -> okres (T k sc fs).
Proof.
  intros H G. destruct (parts_not_call k sc fs H) as [Ht He]. split; [exact Ht|exact G|unfold is_emit_of|unfold stays]; now rewrite He.
Qed.
Lemma okres_other k sc fs : N.eqb k kCall = false -> N.eqb k kName = false -> N.eqb k kBoolOp = false -> okres (T k sc fs).
Proof. intros H1 H2 H3. apply okres_not_call; [exact H1|now apply guard_test_other]. Qed.
Lemma okres_name x fs : reserved x = false -> okres (T kName [SId x] fs).
Proof.
  intros Hx. apply N.ltb_ge in Hx. apply okres_not_call; [reflexivity|].
  unfold is_guard_test, name_is.
  replace (N.eqb x id_te) with false by (symmetry; apply N.eqb_neq; unfold id_te; lia).
  replace (N.eqb x id_fte) with false by (symmetry; apply N.eqb_neq; unfold id_fte; lia).
  reflexivity.
Qed.
Lemma emit_parts_emit e n kws : emit_parts (T kCall [] [[nm_load id_emit]; [cst_ev e; cst_nid n]; kws]) = Some (ev_code e, SNid n, [], kws).
Proof. reflexivity. Qed.
Lemma kw_value_ret r g : kw_value id_ret (kw id_ret r :: g) = Some r.
Proof. reflexivity. Qed.
Lemma tlam_parts_tlam la body : tlam_parts (tlam la body) = Some (la, body).
Proof. reflexivity. Qed.
Lemma okres_emit_ret e n r : value_ev e = true -> okres (emit_ret e n r).
Proof.
  unfold value_ev, special_ev. intros H. apply andb_prop in H as [H Hb]. apply andb_prop in H as [Hs _].
  apply negb_true_iff in Hs, Hb. apply orb_false_elim in Hs as [_ Hs]. split; [reflexivity|reflexivity|exact Hb|].
  unfold stays, emit_ret, emit_call. now rewrite emit_parts_emit, kw_value_ret, Hs.
Qed.
Lemma okres_site c e n x : value_ev e = true -> okres x -> okres (site c e n x).
Proof. intros He Hx. unfold site, wrap_if. destruct (sub c e); [now apply okres_emit_ret|exact Hx]. Qed.
Lemma okres_deferred c e n thunk args node : okres node -> okres (deferred c e n thunk args node).
Proof.
  intros Hn. unfold deferred. destruct (sub c e); [|exact Hn].
  assert (E : emit_parts (emit_deferred e n thunk args) = None) by (apply emit_parts_not_emit; reflexivity).
  split.
  - unfold emit_deferred, tlam_parts. destruct args as [|[k [|] fl|] args]; try reflexivity.
    destruct fl as [|[|a [|]] fl]; try reflexivity. destruct fl as [|[|b [|]] [|]]; try reflexivity. destruct args; reflexivity.
  - now apply guard_test_other.
  - unfold is_emit_of. now rewrite E.
  - unfold stays. now rewrite E.
Qed.

(* the fragment as a view on trees: one constructor per shape that in_frag_e / in_frag_s accept (the kinds of the field-less
   nodes and the length conditions they also check play no part below and are left out) *)
Inductive frag_e : tree -> Prop :=
  | FLeaf k : frag_e (T k [] [])
  | FLoad x : reserved x = false -> frag_e (T kName [SId x] [[T kLoad [] []]])
  | FStore x : reserved x = false -> frag_e (T kName [SId x] [[T kStore [] []]])
  | FConstant v e : const_event [v; SNone] = Some e -> frag_e (T kConstant [v; SNone] [])
  | FBinOp l op r : frag_e l -> frag_e op -> frag_e r -> frag_e (T kBinOp [] [[l]; [op]; [r]])
  | FCompare l ops c0 cs : frag_e l -> (forall x, In x ops -> frag_e x) -> (forall x, In x (c0 :: cs) -> frag_e x) ->
      frag_e (T kCompare [] [[l]; ops; c0 :: cs])
  | FUnaryOp op a : frag_e op -> frag_e a -> frag_e (T kUnaryOp [] [[op]; [a]])
  | FBoolOp op vs : frag_e op -> (forall x, In x vs -> frag_e x) -> frag_e (T kBoolOp [] [[op]; vs])
  | FIfExp a b o : frag_e a -> frag_e b -> frag_e o -> frag_e (T kIfExp [] [[a]; [b]; [o]]).
Inductive frag_s : tree -> Prop :=
  | FExpr v : frag_e v -> frag_s (T kExpr [] [[v]])
  | FAssign ts v : (forall x, In x ts -> frag_e x) -> frag_e v -> frag_s (T kAssign [SNone] [ts; [v]])
  | FPass : frag_s (T kPass [] [])
  | FIf t b o : frag_e t -> (forall x, In x b -> frag_s x) -> (forall x, In x o -> frag_s x) -> frag_s (T kIf [] [[t]; b; o]).

Lemma all_view {A} (f : A -> bool) (P : A -> Prop) l : Forall (fun x => f x = true -> P x) l -> forallb f l = true -> Forall P l.
Proof.
  induction 1 as [|x l Hx _ IH]; intros H; [constructor|]. cbn [forallb] in H. apply andb_prop in H as [H1 H2].
  constructor; auto.
Qed.
Lemma Forall_hd (P : tree -> Prop) x fs : Forall (Forall P) ([x] :: fs) -> P x /\ Forall (Forall P) fs.
Proof. intros H. split; [exact (Forall_inv (Forall_inv H))|exact (Forall_inv_tail H)]. Qed.

Theorem frag_e_view : forall t, in_frag_e t = true -> frag_e t.
Proof.
  induction t as [|k sc fs IH] using tree_ind2; intros H; [discriminate|].
  (* the sub-terms: in_frag_e's own loop over the fields is forallb (forallb in_frag_e), up to conversion *)
  assert (K : forallb (forallb in_frag_e) fs = true -> Forall (Forall frag_e) fs).
  { apply all_view. eapply Forall_impl; [|exact IH]. intros f. apply all_view. }
  clear IH. cbn [in_frag_e] in H.
  destruct (leaf_kind k).
  { destruct sc; [|discriminate]. destruct fs; [|discriminate]. constructor. }
  destruct (N.eqb_spec k kName) as [->|_].
  { destruct sc as [|[| | | |x| | |] [|]]; try discriminate.
    destruct fs as [|[|[kc [|] [|]|] [|]] [|]]; try discriminate.
    apply andb_prop in H as [Hr Hc]. apply negb_true_iff in Hr.
    apply orb_prop in Hc as [Hc|Hc]; apply N.eqb_eq in Hc; subst kc; now constructor. }
  destruct (N.eqb_spec k kConstant) as [->|_].
  { destruct sc as [|v [|[| | | | | | |] [|]]]; try discriminate. destruct fs; [|discriminate].
    destruct (const_event [v; SNone]) as [e|] eqn:Ece; [|discriminate]. now apply (FConstant v e). }
  destruct (N.eqb_spec k kBinOp) as [->|_].
  { destruct sc; [|discriminate]. destruct fs as [|[|l [|]] fs]; try discriminate. destruct fs as [|[|op [|]] fs]; try discriminate.
    destruct fs as [|[|r [|]] [|]]; try discriminate.
    apply K, Forall_hd in H as [Hl H]. apply Forall_hd in H as [Ho H]. apply Forall_hd in H as [Hr _]. now constructor. }
  destruct (N.eqb_spec k kCompare) as [->|_].
  { destruct sc; [|discriminate]. destruct fs as [|[|l [|]] fs]; try discriminate. destruct fs as [|ops [|cs [|]]]; try discriminate.
    apply andb_prop in H as [H Hne]. apply andb_prop in H as [H _]. destruct cs as [|c0 cs]; [discriminate|].
    apply K, Forall_hd in H as [Hl H]. apply Forall_cons_iff in H as [Hops H]. apply Forall_inv in H.
    constructor; [exact Hl|now apply Forall_forall..]. }
  destruct (N.eqb_spec k kUnaryOp) as [->|_].
  { destruct sc; [|discriminate]. destruct fs as [|[|op [|]] fs]; try discriminate. destruct fs as [|[|a [|]] [|]]; try discriminate.
    apply K, Forall_hd in H as [Ho H]. apply Forall_hd in H as [Ha _]. now constructor. }
  destruct (N.eqb_spec k kBoolOp) as [->|_].
  { destruct sc; [|discriminate]. destruct fs as [|[|op [|]] fs]; try discriminate. destruct fs as [|vs [|]]; try discriminate.
    apply andb_prop in H as [H _]. apply K, Forall_hd in H as [Ho H]. apply Forall_inv in H.
    constructor; [exact Ho|now apply Forall_forall]. }
  destruct (N.eqb_spec k kIfExp) as [->|_]; [|discriminate].
  destruct sc; [|discriminate]. destruct fs as [|[|a [|]] fs]; try discriminate. destruct fs as [|[|b [|]] fs]; try discriminate.
  destruct fs as [|[|o [|]] [|]]; try discriminate.
  apply K, Forall_hd in H as [Ha H]. apply Forall_hd in H as [Hb H]. apply Forall_hd in H as [Ho _]. now constructor.
Qed.

Theorem frag_s_view : forall s, in_frag_s s = true -> frag_s s.
Proof.
  induction s as [|k sc fs IH] using tree_ind2; intros H; [discriminate|]. cbn [in_frag_s] in H.
  destruct (N.eqb_spec k kExpr) as [->|_].
  { destruct sc; [|discriminate]. destruct fs as [|[|v [|]] [|]]; try discriminate.
    constructor. now apply frag_e_view. }
  destruct (N.eqb_spec k kAssign) as [->|_].
  { destruct sc as [|[| | | | | | |] [|]]; try discriminate.
    destruct fs as [|ts fs]; try discriminate. destruct fs as [|[|v [|]] [|]]; try discriminate.
    apply andb_prop in H as [H Hv]. apply andb_prop in H as [Ht _].
    constructor; [|now apply frag_e_view]. intros x Hx. apply frag_e_view. rewrite forallb_forall in Ht. now apply Ht. }
  destruct (N.eqb_spec k kPass) as [->|_].
  { destruct sc; [|discriminate]. destruct fs; [|discriminate]. constructor. }
  destruct (N.eqb_spec k kIf) as [->|_]; [|discriminate].
  destruct sc; [|discriminate]. destruct fs as [|[|t [|]] fs]; try discriminate. destruct fs as [|b [|o [|]]]; try discriminate.
  apply andb_prop in H as [H Ho]. apply andb_prop in H as [H Hb]. apply andb_prop in H as [Ht _].
  apply Forall_inv_tail in IH. apply Forall_cons_iff in IH as [IHb IH]. apply Forall_inv in IH.
  constructor; [now apply frag_e_view|apply Forall_forall; now apply (all_view in_frag_s)..].
Qed.

Lemma in_frag_view m : in_frag m = true -> exists body, m = T kModule [] [body; []] /\ forall s, In s body -> frag_s s.
Proof.
  destruct m as [k sc fs|]; [|discriminate]. unfold in_frag.
  destruct sc; [|discriminate]. destruct fs as [|body [|[|] [|]]]; try discriminate.
  intros H. apply andb_prop in H as [Hk Hb]. apply N.eqb_eq in Hk; subst k. exists body. split; [reflexivity|].
  intros s Hs. apply frag_s_view. rewrite forallb_forall in Hb. now apply Hb.
Qed.

Theorem rwe_none : forall t, frag_e t -> forall n, rwe no_events t n = t.
Proof.
  induction 1 as [k|x Hx|x Hx|v e He|l op r _ IHl _ _ _ IHr|l ops c0 cs _ IHl _ _ _ IHcs|op a _ IHo _ IHa|op vs _ IHo _ IHvs
                 |a b o _ IHa _ IHb _ IHo]; intros n.
  - apply rwe_leaf.
  - reflexivity.
  - reflexivity.
  - now rewrite (rwe_constant _ v e n He).
  - now rewrite rwe_binop, IHl, IHr.
  - assert (Hc : forall x, In x (c0 :: cs) -> forall j, compare_arg no_events x j = x) by (intros x Hx j; apply IHcs, Hx).
    rewrite rwe_compare, IHl, Hc, imap_id; [reflexivity|intros x Hx; apply Hc|]; now (left + right).
  - now rewrite rwe_unaryop, IHo, IHa.
  - now rewrite rwe_boolop, IHo, imap_id.
  - now rewrite rwe_ifexp, IHa, IHb, IHo.
Qed.

Lemma const_event_value sc e : const_event sc = Some e -> value_ev e = true.
Proof. destruct sc as [|[] ?]; intros H; inversion H; reflexivity. Qed.

Theorem okres_rwe c : forall t, frag_e t -> forall n, okres (rwe c t n).
Proof.
  induction 1 as [k|x Hx|x Hx|v e He|l op r _ _ _ _ _ _|l ops c0 cs _ _ _ _ _ _|op a _ _ _ _|op vs _ _ _ IHvs|a b o _ _ _ _ _ _];
    intros n.
  - rewrite rwe_leaf. split; reflexivity.
  - rewrite rwe_name. apply okres_site; [reflexivity|now apply okres_name].
  - rewrite rwe_name. now apply okres_name.
  - rewrite (rwe_constant c v e n He). apply okres_site; [exact (const_event_value _ e He)|now apply okres_other].
  - rewrite rwe_binop. apply okres_site; [reflexivity|]. apply okres_deferred. now apply okres_other.
  - rewrite rwe_compare. apply okres_site; [reflexivity|]. apply okres_deferred. now apply okres_other.
  - rewrite rwe_unaryop. now apply okres_other.
  - rewrite rwe_boolop. apply okres_not_call; [reflexivity|].
    unfold is_guard_test at 1. rewrite !name_is_false_kind by reflexivity. cbn [orb].
    destruct (rwe c op (n + 1)) as [ka ? ?|]; [|reflexivity]. destruct vs as [|v vs]; [reflexivity|]. cbn [imap].
    pose proof (ok_guard _ (IHvs v (or_introl eq_refl) (n + 1 + nsizes [op]))) as Hv.
    unfold is_guard_test in Hv. apply orb_false_elim in Hv as [Hv _]. rewrite Hv. now rewrite !andb_false_r.
  - rewrite rwe_ifexp. now apply okres_other.
Qed.
Lemma okres_src t : frag_e t -> okres t.
Proof. intros H. rewrite <- (rwe_none t H 0). now apply okres_rwe. Qed.

(* main_of, and bl inside it, serve RwFragProj.rwsK (the canonical form named by C03's statements), not the proofs below *)
Section Stmts.
  Variable c : rcfg.
  Fixpoint bl (u : list tree) (j : N) {struct u} : list tree :=
    match u with [] => [] | x :: u' => rws c false x j ++ bl u' (j + nsize x) end.

  Definition main_of (k : N) (sc : list scalar) (fs : list (list tree)) (n : N) : tree :=
    let s := T k sc fs in
    if N.eqb k kExpr then
      match fs with
      | [[v]] => T k sc [[wrap_if (sub c E_after_expr_stmt) (emit_ret E_after_expr_stmt n) (rwe c v (n + 1))]]
      | _ => s
      end
    else if N.eqb k kAssign then
      match fs with
      | [targets; [v]] =>
          let nv := n + 1 + nsizes targets in
          let v1 := rwe c v nv in
          let v2 := if sub c E_before_assign_rhs then emit_deferred E_before_assign_rhs nv (tlam no_args v1) [] else v1 in
          T k sc [targets; [wrap_if (sub c E_after_assign_rhs) (emit_ret E_after_assign_rhs nv) v2]]
      | _ => s
      end
    else if N.eqb k kIf then
      match fs with
      | [[test]; b; o] =>
          let nb := n + 1 + nsize test in
          T k sc [[wrap_if (sub c E_after_if_test) (emit_ret E_after_if_test n) (rwe c test (n + 1))]; bl b nb; bl o (nb + nsizes b)]
      | _ => s
      end
    else s.

  Definition main_and_after (is_module : bool) (n : N) (m : tree) (m_is_expr : bool) (m_value : tree) : list tree :=
    if sub c E_after_stmt || (sub c E_after_module_stmt && is_module) then
      if m_is_expr && is_module then [stmt_emit E_after_stmt n [kw id_ret m_value]]
      else [m; stmt_emit E_after_stmt n []]
    else [m].
End Stmts.

Definition before_stmt_if (n : N) (b o : list tree) : tree := T kIf [] [[emit_call E_before_stmt n []]; b; o].
Definition after_module_line (n : N) : tree :=
  stmt_emit E_after_module_stmt n [kw id_ret (emit_call E_priv_load_saved_expr_stmt_ret n [])].
(* what surrounds the statement's own part `own`; `after` is main_and_after for the rewriter and after_can below for the
   canonical forms *)
Definition expand (c : rcfg) (after : tree -> bool -> tree -> list tree) (is_module : bool) (n : N) (own : list tree) : list tree :=
  let expanded := if sub c E_before_stmt then [before_stmt_if n (after (expr_stmt thunk_call) true thunk_call) own] else own in
  if is_module && sub c E_after_module_stmt then expanded ++ [after_module_line n] else expanded.
Definition rw_form (c : rcfg) (im : bool) (n : N) (m : tree) (m_is_expr : bool) (m_value : tree) : list tree :=
  expand c (main_and_after c im n) im n (main_and_after c im n m m_is_expr m_value).
(* by conversion rw_body c im and bl c are body_of (rws c im) and body_of (rws c false) *)
Section BodyOf.
  Variable f : tree -> N -> list tree.
  Fixpoint body_of (u : list tree) (j : N) {struct u} : list tree :=
    match u with [] => [] | x :: u' => f x j ++ body_of u' (j + nsize x) end.
End BodyOf.

(* the body of rws with the recursive call as a parameter: `rec` rewrites the statements of a nested block, `form` is what
   surrounds the main statement (rw_form for the rewriter, can_form below for the canonical forms) *)
Definition stmt_main (c : rcfg) (rec : tree -> N -> list tree) (s : tree) (k : N) (sc : list scalar) (fs : list (list tree)) (n : N) : tree :=
  if N.eqb k kExpr then match fs with [[v]] => T k sc [[site c E_after_expr_stmt n (rwe c v (n + 1))]] | _ => s end
  else if N.eqb k kAssign then
    match fs with [ts; [v]] => T k sc [ts; [assign_rhs c (n + 1 + nsizes ts) (rwe c v (n + 1 + nsizes ts))]] | _ => s end
  else if N.eqb k kIf then
    match fs with
    | [[t]; b; o] =>
        T k sc [[site c E_after_if_test n (rwe c t (n + 1))]; body_of rec b (n + 1 + nsize t); body_of rec o (n + 1 + nsize t + nsizes b)]
    | _ => s
    end
  else s.
Definition stmt_form (form : tree -> bool -> tree -> list tree) (c : rcfg) (rec : tree -> N -> list tree) (s : tree) (n : N) : list tree :=
  match s with
  | NoneNode => [NoneNode]
  | T k sc fs => let main := stmt_main c rec s k sc fs n in form main (N.eqb k kExpr) (match main with T _ _ [[v]] => v | _ => main end)
  end.
(* a twin of `rws` (see `gexec` in FragSemProofs.v); rewrite with `rws_eq` *)
Fixpoint rws_twin (c : rcfg) (im : bool) (s : tree) (n : N) {struct s} : list tree :=
  stmt_form (rw_form c im n) c (rws_twin c false) s n.
Lemma rws_fix : rws = rws_twin.
Proof. reflexivity. Qed.
Lemma rws_eq c im s n : rws c im s n = stmt_form (rw_form c im n) c (rws c false) s n.
Proof. rewrite rws_fix. destruct s; reflexivity. Qed.

Section StmtForm.
  Variables (form : tree -> bool -> tree -> list tree) (c : rcfg) (rec : tree -> N -> list tree) (n : N).
  Lemma stmt_form_expr v :
    stmt_form form c rec (T kExpr [] [[v]]) n =
    form (expr_stmt (site c E_after_expr_stmt n (rwe c v (n + 1)))) true (site c E_after_expr_stmt n (rwe c v (n + 1))).
  Proof. reflexivity. Qed.
  (* rw_form and can_form do not look at the value of a statement that is not an expression statement *)
  Lemma stmt_form_assign ts v : (forall m x y, form m false x = form m false y) ->
    stmt_form form c rec (T kAssign [SNone] [ts; [v]]) n =
    form (T kAssign [SNone] [ts; [assign_rhs c (n + 1 + nsizes ts) (rwe c v (n + 1 + nsizes ts))]]) false
         (T kAssign [SNone] [ts; [assign_rhs c (n + 1 + nsizes ts) (rwe c v (n + 1 + nsizes ts))]]).
  Proof. intros H. apply H. Qed.
  Lemma stmt_form_pass : stmt_form form c rec (T kPass [] []) n = form (T kPass [] []) false (T kPass [] []).
  Proof. reflexivity. Qed.
  Lemma stmt_form_if t b o :
    stmt_form form c rec (T kIf [] [[t]; b; o]) n =
    form (T kIf [] [[site c E_after_if_test n (rwe c t (n + 1))]; body_of rec b (n + 1 + nsize t); body_of rec o (n + 1 + nsize t + nsizes b)])
         false
         (T kIf [] [[site c E_after_if_test n (rwe c t (n + 1))]; body_of rec b (n + 1 + nsize t); body_of rec o (n + 1 + nsize t + nsizes b)]).
  Proof. reflexivity. Qed.
End StmtForm.

(* the canonical form of a rewrite for the subscription `ck`: what is left of the rewrite for any larger subscription once every
   site outside `ck` is erased.  Expressions: `rwe ck`.  Statements: `can`, any function that satisfies the equation can_law on
   the fragment. *)
Definition after_can (ck : rcfg) (is_module : bool) (n : N) (m : tree) (m_is_expr : bool) (m_value : tree) : list tree :=
  if m_is_expr && is_module
  then (if sub ck E_after_stmt || sub ck E_after_module_stmt then [stmt_emit E_after_stmt n [kw id_ret m_value]] else [m])
  else m :: (if sub ck E_after_stmt then [stmt_emit E_after_stmt n []] else []).
Definition can_form (ck : rcfg) (im : bool) (n : N) (m : tree) (m_is_expr : bool) (m_value : tree) : list tree :=
  expand ck (after_can ck im n) im n (after_can ck im n m m_is_expr m_value).

Definition can_law (ck : rcfg) (can : bool -> tree -> N -> list tree) : Prop :=
  forall s, frag_s s -> forall im n, can im s n = stmt_form (can_form ck im n) ck (can false) s n.
Definition module_can (ck : rcfg) (can : bool -> tree -> N -> list tree) (m : tree) : tree :=
  match m with
  | T k sc [body; ti] =>
      T k sc [mod_doc body
              ++ (if sub ck E_init_module then [stmt_emit E_init_module 0 []] else [])
              ++ body_of (can true) (mod_rest body) (mod_start body)
              ++ (if sub ck E_exit_module then [stmt_emit E_exit_module 0 []] else []); ti]
  | _ => m
  end.

Definition special_kind (k : N) : bool := existsb (N.eqb k) [kCall; kIfExp; kIf; kTry; kExpr; kSubscript].
(* a site with a value is also kept when it is the after_stmt site that saves the value for a kept after_module_stmt *)
Definition keepv (ck : rcfg) (e : event) : bool :=
  sub ck e || (N.eqb (ev_code e) (ev_code E_after_stmt) && sub ck E_after_module_stmt).

Record root_laws (pst : N -> list scalar -> list (list tree) -> option (list tree)) (ck : rcfg) : Prop := {
  rl_other : forall k sc fs, special_kind k = false -> pst k sc fs = Some [T k sc fs];
  rl_leaf : forall k, pst k [] [] = Some [T k [] []];
  rl_emit_value : forall e n kws r,
    kw_value id_ret kws = Some r -> tlam_parts r = None -> special_ev e = false -> filter (fun kw => negb (is_guard_kw kw)) kws = kws ->
    pst kCall [] [[nm_load id_emit]; [cst_ev e; cst_nid n]; kws] = Some [if keepv ck e then emit_call e n kws else r];
  rl_emit_thunk : forall e n la body,
    pst kCall [] [[nm_load id_emit]; [cst_ev e; cst_nid n]; [kw id_ret (tlam la body); guards_none]]
    = Some [emit_call e n [kw id_ret (tlam la body); guards_none]];
  rl_emit_stmt : forall e n, pst kCall [] [[nm_load id_emit]; [cst_ev e; cst_nid n]; []] = Some [emit_call e n []];
  rl_call : forall f args, emit_parts f = None -> emit_parts (T kCall [] [[f]; args; []]) = None ->
    pst kCall [] [[f]; args; []] = Some [T kCall [] [[f]; args; []]];
  (* the application of a deferred emit: kept, or erased as `post` does *)
  rl_apply : forall e n la body args, N.eqb (ev_code e) (ev_code E_after_stmt) = false ->
    pst kCall [] [[emit_call e n [kw id_ret (tlam la body); guards_none]]; args; []]
    = if sub ck e then Some [emit_deferred e n (tlam la body) args]
      else post kCall [] [[emit_call e n [kw id_ret (tlam la body); guards_none]]; args; []];
  rl_ifexp : forall a b o, is_guard_test a = false -> pst kIfExp [] [[a]; [b]; [o]] = Some [T kIfExp [] [[a]; [b]; [o]]];
  rl_if : forall t b o, is_guard_test t = false -> is_emit_of E_before_stmt t = false ->
    pst kIf [] [[t]; b; o] = Some [T kIf [] [[t]; b; o]];
  (* the replacement branch of a before_stmt expansion, as the erasure of its children leaves it *)
  rl_if_before : forall im n o,
    let b := after_can ck im n (expr_stmt thunk_call) true thunk_call in
    pst kIf [] [[emit_call E_before_stmt n []]; b; o] = Some (if sub ck E_before_stmt then [before_stmt_if n b o] else o);
  rl_expr : forall v, stays v = true -> pst kExpr [] [[v]] = Some [expr_stmt v];
  rl_expr_emit : forall e n, pst kExpr [] [[emit_call e n []]] = Some (if sub ck e then [stmt_emit e n []] else []) }.

Lemma post_apply0 e n body :
  post kCall [] [[emit_call e n [kw id_ret (tlam no_args body); guards_none]]; []; []] = Some [body].
Proof. reflexivity. Qed.
Lemma post_apply_binop e n op l r :
  post kCall [] [[emit_call e n [kw id_ret (tlam (args2 id_x id_y) (T kBinOp [] [[nm_load id_x]; [op]; [nm_load id_y]])); guards_none]]; [l; r]; []]
  = Some [T kBinOp [] [[l]; [op]; [r]]].
Proof.
  unfold post. change (N.eqb kCall kCall) with true. cbv iota. rewrite emit_parts_not_emit by reflexivity. reflexivity.
Qed.
Lemma post_apply_compare e n ops crest l c0 :
  post kCall [] [[emit_call e n [kw id_ret (tlam (args2 id_cmp_x id_cmp_y) (T kCompare [] [[nm_load id_cmp_x]; ops; nm_load id_cmp_y :: crest])); guards_none]]; [l; c0]; []]
  = Some [T kCompare [] [[l]; ops; c0 :: crest]].
Proof.
  unfold post. change (N.eqb kCall kCall) with true. cbv iota. rewrite emit_parts_not_emit by reflexivity. reflexivity.
Qed.

Fixpoint inert (t : tree) : bool :=
  match t with NoneNode => true | T k _ fs => negb (special_kind k) && forallb (forallb inert) fs end.

Section Proj.
  Variable pst : N -> list scalar -> list (list tree) -> option (list tree).
  Variables ck c : rcfg.
  Hypothesis laws : root_laws pst ck.
  Hypothesis sub_ck : forall e, sub ck e = true -> sub c e = true.
  Notation eg := (erase_gen pst).
  Notation egl := (erase_gen_list pst).
  Notation egf := (erase_gen_fields pst).

  Lemma eg_plain k sc fs fs' : special_kind k = false -> egf fs = Some fs' -> eg (T k sc fs) = Some [T k sc fs'].
  Proof. intros Hk H. rewrite (eg_node pst k sc fs fs' H). now apply (rl_other _ _ laws). Qed.
  Lemma eg_inert : forall t, inert t = true -> eg t = Some [t].
  Proof.
    induction t as [|k sc fs IH] using tree_ind2; intros H; [reflexivity|].
    cbn [inert] in H. apply andb_prop in H as [Hk H]. apply negb_true_iff in Hk. apply eg_plain; [exact Hk|].
    apply egf_id. revert H. apply all_view. eapply Forall_impl; [|exact IH].
    intros f Hf H. apply egl_id. revert H. now apply all_view.
  Qed.
  (* the constant parts of an emit call *)
  Local Hint Extern 1 (erase_gen pst ?t = Some [_]) => (apply eg_inert; reflexivity) : eg.

  Lemma eg_kw x r r' : eg r = Some [r'] -> eg (kw x r) = Some [kw x r'].
  Proof. intros H. apply eg_plain; [reflexivity|eauto with eg]. Qed.
  Local Hint Resolve eg_kw : eg.
  Lemma eg_emit_call e n kws kws' : egl kws = Some kws' ->
    eg (emit_call e n kws) = pst kCall [] [[nm_load id_emit]; [cst_ev e; cst_nid n]; kws'].
  Proof. intros H. apply eg_node. eauto 7 with eg. Qed.

  Lemma sub_ck_false e : sub c e = false -> sub ck e = false.
  Proof. intros H. destruct (sub ck e) eqn:E; [|reflexivity]. rewrite (sub_ck e E) in H. discriminate. Qed.
  Lemma eg_if_sub e x y x' y' : eg x = Some [if sub ck e then x' else y'] -> eg y = Some [y'] ->
    eg (if sub c e then x else y) = Some [if sub ck e then x' else y'].
  Proof. intros Hx Hy. destruct (sub c e) eqn:E; [exact Hx|now rewrite (sub_ck_false e E)]. Qed.
  Lemma eg_site e n x x' : value_ev e = true -> eg x = Some [x'] -> okres x' -> eg (site c e n x) = Some [site ck e n x'].
  Proof.
    unfold value_ev, site, wrap_if, emit_ret. intros He Hx Ox. apply andb_prop in He as [He _]. apply andb_prop in He as [Hs Ha].
    apply negb_true_iff in Hs, Ha. apply eg_if_sub; [|exact Hx]. erewrite eg_emit_call by eauto with eg.
    replace (sub ck e) with (keepv ck e) by (unfold keepv; now rewrite Ha, orb_false_r).
    apply (rl_emit_value _ _ laws); [reflexivity|apply Ox|exact Hs|reflexivity].
  Qed.

  Lemma eg_deferred e n la body body' args args' node node' :
    N.eqb (ev_code e) (ev_code E_after_stmt) = false -> eg la = Some [la] -> eg body = Some [body'] -> egl args = Some args' ->
    eg node = Some [node'] -> post kCall [] [[emit_call e n [kw id_ret (tlam la body'); guards_none]]; args'; []] = Some [node'] ->
    eg (deferred c e n (tlam la body) args node) = Some [deferred ck e n (tlam la body') args' node'].
  Proof.
    intros He Ha Hb Hargs Hn Hres. unfold deferred. apply eg_if_sub; [|exact Hn].
    assert (L : eg (T kLambda [] [[la]; [body]]) = Some [T kLambda [] [[la]; [body']]])
      by (apply eg_plain; [reflexivity|eauto with eg]).
    assert (Ht : eg (tlam la body) = Some [tlam la body'])
      by (unfold tlam; erewrite eg_node by eauto 6 with eg; now apply (rl_call _ _ laws)).
    assert (F : eg (emit_call e n [kw id_ret (tlam la body); guards_none]) = Some [emit_call e n [kw id_ret (tlam la body'); guards_none]])
      by (erewrite eg_emit_call by eauto with eg; apply (rl_emit_thunk _ _ laws)).
    unfold emit_deferred. erewrite eg_node by eauto with eg. rewrite (rl_apply _ _ laws), Hres; [now destruct (sub ck e)|exact He].
  Qed.

  Lemma eg_leaf k : eg (T k [] []) = Some [T k [] []].
  Proof. rewrite (eg_node pst k [] [] [] (egf_nil pst)). apply (rl_leaf _ _ laws). Qed.
  Lemma egl_src l : (forall x, In x l -> eg x = Some [x]) -> egl l = Some l.
  Proof. intros H. now apply egl_id, Forall_forall. Qed.
  Theorem frag_src : forall t, frag_e t -> eg t = Some [t].
  Proof.
    induction 1 as [k|x Hx|x Hx|v e He|l op r _ IHl _ IHo _ IHr|l ops c0 cs _ IHl _ IHops _ IHcs|op a _ IHo _ IHa|op vs _ IHo _ IHvs
                   |a b o Fa IHa _ IHb _ IHo].
    - apply eg_leaf.
    - apply eg_inert; reflexivity.
    - apply eg_inert; reflexivity.
    - apply eg_inert; reflexivity.
    - apply eg_plain; [reflexivity|eauto 7 with eg].
    - apply egl_src in IHops, IHcs. apply eg_plain; [reflexivity|eauto with eg].
    - apply eg_plain; [reflexivity|eauto with eg].
    - apply egl_src in IHvs. apply eg_plain; [reflexivity|eauto with eg].
    - erewrite eg_node by eauto 7 with eg. apply (rl_ifexp _ _ laws). now apply ok_guard, okres_src.
  Qed.

  Lemma egl_imap f g u : (forall x, In x u -> forall j, eg (f x j) = Some [g x j]) -> forall j, egl (imap f u j) = Some (imap g u j).
  Proof.
    induction u as [|x u IH]; intros H j; [reflexivity|]. cbn [imap]. apply egl_cons; [apply H; now left|].
    apply IH. intros y Hy. apply H. now right.
  Qed.

  Lemma eg_site_rwe e t : value_ev e = true -> frag_e t -> (forall j, eg (rwe c t j) = Some [rwe ck t j]) ->
    forall n j, eg (site c e n (rwe c t j)) = Some [site ck e n (rwe ck t j)].
  Proof. intros He Ft H n j. apply eg_site; [exact He|apply H|now apply okres_rwe]. Qed.

  Theorem rwe_proj : forall t, frag_e t -> forall n, eg (rwe c t n) = Some [rwe ck t n].
  Proof.
    induction 1 as [k|x Hx|x Hx|v e He|l op r Fl IHl Fo _ Fr IHr|l ops c0 cs Fl IHl Fops _ Fcs IHcs|op a _ IHo _ IHa|op vs _ IHo _ IHvs
                   |a b o Fa IHa _ IHb _ IHo]; intros n.
    - rewrite !rwe_leaf. apply eg_leaf.
    - rewrite !rwe_name. apply eg_site; [reflexivity|apply eg_inert; reflexivity|now apply okres_name].
    - rewrite !rwe_name. apply eg_inert; reflexivity.
    - rewrite !(rwe_constant _ v e n He). apply eg_site; [exact (const_event_value _ e He)|apply eg_inert; reflexivity|now apply okres_other].
    - rewrite !rwe_binop. apply eg_site; [reflexivity| |apply okres_deferred; now apply okres_other].
      pose proof (frag_src op Fo). pose proof (eg_site_rwe E_left_binop_arg l eq_refl Fl IHl).
      pose proof (eg_site_rwe E_right_binop_arg r eq_refl Fr IHr).
      apply eg_deferred; [reflexivity|eauto with eg|apply eg_plain; [reflexivity|eauto 7 with eg]|eauto with eg
                         |apply eg_plain; [reflexivity|eauto 7 with eg]|apply post_apply_binop].
    - rewrite !rwe_compare. apply eg_site; [reflexivity| |apply okres_deferred; now apply okres_other].
      assert (Hc : forall x, In x (c0 :: cs) -> forall j, eg (compare_arg c x j) = Some [compare_arg ck x j])
        by (intros x Hx j; exact (eg_site_rwe E_compare_arg x eq_refl (Fcs x Hx) (IHcs x Hx) j j)).
      assert (Ho : egl ops = Some ops) by (apply egl_src; intros x Hx; now apply frag_src, Fops).
      pose proof (eg_site_rwe E_left_compare_arg l eq_refl Fl IHl).
      pose proof (Hc c0 (or_introl eq_refl)). pose proof (egl_imap _ _ cs (fun x Hx => Hc x (or_intror Hx))).
      apply eg_deferred; [reflexivity|eauto with eg|apply eg_plain; [reflexivity|eauto 7 with eg]|eauto with eg
                         |apply eg_plain; [reflexivity|eauto 7 with eg]|apply post_apply_compare].
    - rewrite !rwe_unaryop. apply eg_plain; [reflexivity|eauto with eg].
    - rewrite !rwe_boolop. pose proof (egl_imap _ _ vs IHvs). apply eg_plain; [reflexivity|eauto with eg].
    - rewrite !rwe_ifexp. erewrite eg_node by eauto 7 with eg. apply (rl_ifexp _ _ laws). now apply ok_guard, okres_rwe.
  Qed.

  Lemma eg_expr_stmt v v' : eg v = Some [v'] -> stays v' = true -> eg (expr_stmt v) = Some [expr_stmt v'].
  Proof. intros Hv Hs. unfold expr_stmt. erewrite eg_node by eauto with eg. now apply (rl_expr _ _ laws). Qed.
  Lemma eg_emit_stmt e n : eg (emit_call e n []) = Some [emit_call e n []].
  Proof. rewrite (eg_emit_call e n [] []) by reflexivity. apply (rl_emit_stmt _ _ laws). Qed.
  Local Hint Resolve eg_emit_stmt : eg.
  Lemma eg_stmt_emit e n : eg (stmt_emit e n []) = Some (if sub ck e then [stmt_emit e n []] else []).
  Proof. unfold stmt_emit, expr_stmt. erewrite eg_node by eauto with eg. apply (rl_expr_emit _ _ laws). Qed.
  Lemma egl_if_emit e n :
    egl (if sub c e then [stmt_emit e n []] else []) = Some (if sub ck e then [stmt_emit e n []] else []).
  Proof. destruct (sub c e) eqn:E; [apply egl_one, eg_stmt_emit|now rewrite (sub_ck_false e E)]. Qed.

  (* the after_stmt site that carries the value of a module-level expression statement *)
  Lemma eg_after_stmt_ret n v v' : eg v = Some [v'] -> okres v' ->
    eg (stmt_emit E_after_stmt n [kw id_ret v])
    = Some [if sub ck E_after_stmt || sub ck E_after_module_stmt then stmt_emit E_after_stmt n [kw id_ret v'] else expr_stmt v'].
  Proof.
    intros Hv Ov.
    assert (Hc : eg (emit_call E_after_stmt n [kw id_ret v]) =
                 Some [if keepv ck E_after_stmt then emit_call E_after_stmt n [kw id_ret v'] else v']).
    { erewrite eg_emit_call by eauto with eg. apply (rl_emit_value _ _ laws); [reflexivity|apply Ov|reflexivity|reflexivity]. }
    unfold stmt_emit. change (keepv ck E_after_stmt) with (sub ck E_after_stmt || sub ck E_after_module_stmt) in Hc.
    destruct (sub ck E_after_stmt || sub ck E_after_module_stmt); apply eg_expr_stmt; try exact Hc; [reflexivity|apply Ov].
  Qed.
  Hypothesis priv : sub ck E_priv_load_saved_expr_stmt_ret = false.
  Lemma eg_after_module_line n :
    eg (after_module_line n) = Some (if sub ck E_after_module_stmt then [after_module_line n] else []).
  Proof.
    unfold after_module_line, stmt_emit.
    assert (Hc : eg (emit_call E_after_module_stmt n [kw id_ret (emit_call E_priv_load_saved_expr_stmt_ret n [])]) =
                 Some [if sub ck E_after_module_stmt
                       then emit_call E_after_module_stmt n [kw id_ret (emit_call E_priv_load_saved_expr_stmt_ret n [])]
                       else emit_call E_priv_load_saved_expr_stmt_ret n []]).
    { erewrite eg_emit_call by eauto with eg. rewrite <- (orb_false_r (sub ck E_after_module_stmt)).
      now apply (rl_emit_value _ _ laws). }
    destruct (sub ck E_after_module_stmt); [now apply eg_expr_stmt|].
    unfold expr_stmt. erewrite eg_node by eauto with eg. now rewrite (rl_expr_emit _ _ laws), priv.
  Qed.

  Lemma after_other_ok im n m m' x x' : eg m = Some [m'] ->
    egl (main_and_after c im n m false x) = Some (after_can ck im n m' false x').
  Proof.
    intros Hm. unfold main_and_after, after_can. cbn [andb].
    destruct (sub c E_after_stmt || sub c E_after_module_stmt && im) eqn:W.
    - apply (egl_cons_gen pst m [m']); [exact Hm|]. apply egl_one, eg_stmt_emit.
    - apply orb_false_elim in W as [W _]. rewrite (sub_ck_false _ W). now apply egl_one.
  Qed.
  Lemma after_expr_ok im n v v' : eg v = Some [v'] -> okres v' ->
    egl (main_and_after c im n (expr_stmt v) true v) = Some (after_can ck im n (expr_stmt v') true v').
  Proof.
    intros Hv Ov. pose proof (eg_expr_stmt v v' Hv (ok_stays _ Ov)) as Hm.
    destruct im; [|exact (after_other_ok false n _ _ v v' Hm)].
    unfold main_and_after, after_can. cbn [andb]. rewrite andb_true_r.
    destruct (sub c E_after_stmt || sub c E_after_module_stmt) eqn:W.
    - rewrite (egl_one _ _ _ (eg_after_stmt_ret n v v' Hv Ov)). now destruct (sub ck E_after_stmt || sub ck E_after_module_stmt).
    - apply orb_false_elim in W as [W1 W2]. rewrite (sub_ck_false _ W1), (sub_ck_false _ W2). now apply egl_one.
  Qed.

  Lemma expand_ok im n own own' : egl own = Some own' ->
    egl (expand c (main_and_after c im n) im n own) = Some (expand ck (after_can ck im n) im n own').
  Proof.
    intros Hown. unfold expand. cbv zeta.
    set (b := main_and_after c im n (expr_stmt thunk_call) true thunk_call).
    set (b' := after_can ck im n (expr_stmt thunk_call) true thunk_call).
    assert (Hb : egl b = Some b').
    { apply after_expr_ok; [|split; reflexivity]. unfold thunk_call. erewrite eg_node by eauto with eg. now apply (rl_call _ _ laws). }
    assert (Hexp : egl (if sub c E_before_stmt then [before_stmt_if n b own] else own)
                   = Some (if sub ck E_before_stmt then [before_stmt_if n b' own'] else own')).
    { destruct (sub c E_before_stmt) eqn:E; [|now rewrite (sub_ck_false _ E)].
      apply egl_one. unfold before_stmt_if at 1. erewrite eg_node by eauto with eg. apply (rl_if_before _ _ laws). }
    destruct (im && sub c E_after_module_stmt) eqn:E.
    - apply andb_prop in E as [-> _]. cbn [andb].
      rewrite (egl_app pst _ _ _ _ Hexp (egl_one _ _ _ (eg_after_module_line n))).
      destruct (sub ck E_after_module_stmt); [reflexivity|now rewrite app_nil_r].
    - rewrite Hexp. destruct im; [|reflexivity]. cbn [andb] in E |- *. now rewrite (sub_ck_false _ E).
  Qed.
  Variable can : bool -> tree -> N -> list tree.
  Hypothesis cans : can_law ck can.

  Lemma egl_body im u : (forall x, In x u -> forall im n, egl (rws c im x n) = Some (can im x n)) ->
    forall j, egl (body_of (rws c im) u j) = Some (body_of (can im) u j).
  Proof.
    induction u as [|x u IH]; intros H j; [reflexivity|]. cbn [body_of]. apply egl_app; [apply H; now left|].
    apply IH. intros y Hy. apply H. now right.
  Qed.

  Theorem rws_proj : forall s, frag_s s -> forall im n, egl (rws c im s n) = Some (can im s n).
  Proof.
    induction 1 as [v Fv|ts v Fts Fv| |t b o Ft Fb IHb Fo IHo]; intros im n; rewrite rws_eq, cans by now constructor.
    - rewrite !stmt_form_expr. apply expand_ok, after_expr_ok.
      + exact (eg_site_rwe E_after_expr_stmt v eq_refl Fv (rwe_proj v Fv) n (n + 1)).
      + apply okres_site; [reflexivity|now apply okres_rwe].
    - rewrite !stmt_form_assign by (intros; reflexivity). apply expand_ok, after_other_ok.
      assert (Ht : egl ts = Some ts) by (apply egl_src; intros x Hx; now apply frag_src, Fts).
      assert (Hr : forall j, eg (assign_rhs c j (rwe c v j)) = Some [assign_rhs ck j (rwe ck v j)]).
      { intros j. pose proof (rwe_proj v Fv j). apply eg_site; [reflexivity| |apply okres_deferred; now apply okres_rwe].
        apply eg_deferred; [reflexivity|eauto with eg|assumption|reflexivity|assumption|apply post_apply0]. }
      apply eg_plain; [reflexivity|eauto with eg].
    - rewrite !stmt_form_pass. apply expand_ok, after_other_ok. apply eg_inert; reflexivity.
    - rewrite !stmt_form_if. apply expand_ok, after_other_ok.
      pose proof (okres_site ck E_after_if_test n _ eq_refl (okres_rwe ck t Ft (n + 1))) as Ot.
      pose proof (eg_site_rwe E_after_if_test t eq_refl Ft (rwe_proj t Ft)).
      pose proof (egl_body false b IHb). pose proof (egl_body false o IHo).
      erewrite eg_node by eauto with eg. apply (rl_if _ _ laws); apply Ot.
  Qed.

  Lemma eg_docstring d : frag_s d -> is_docstring_strict d = true -> eg d = Some [d].
  Proof.
    intros [v Fv|ts v _ _| |t b o _ _ _] H; try discriminate.
    - apply eg_expr_stmt; [now apply frag_src|now apply ok_stays, okres_src].
    - destruct t as [? [|[] ?] [|]|]; discriminate.
  Qed.

  Theorem rw_module_proj_can m : in_frag m = true -> eg (rw_module c m) = Some [module_can ck can m].
  Proof.
    intros H. destruct (in_frag_view m H) as (body & -> & Hb). unfold rw_module, module_can.
    apply eg_plain; [reflexivity|]. apply egf_cons; [|reflexivity].
    apply egl_app; [|apply egl_app; [apply egl_if_emit|apply egl_app; [|apply egl_if_emit]]].
    - destruct body as [|d rest]; [reflexivity|]. unfold mod_doc. destruct (is_docstring_strict d) eqn:Ed; [|reflexivity].
      apply egl_one, eg_docstring; [apply Hb; now left|exact Ed].
    - apply (egl_body true). intros s Hs. apply rws_proj, Hb.
      destruct body as [|d rest]; [destruct Hs|]. unfold mod_rest in Hs. destruct (is_docstring_strict d); [now right|exact Hs].
  Qed.
End Proj.

Lemma post_laws : root_laws post no_events.
Proof.
  split.
  - intros k sc fs H. unfold special_kind in H. cbn [existsb] in H. repeat (apply orb_false_elim in H as [? H]). now apply post_other.
  - intros k. unfold post. destruct (N.eqb k kCall); [reflexivity|]. destruct (N.eqb k kIfExp); [reflexivity|].
    destruct (N.eqb k kIf); [reflexivity|]. destruct (N.eqb k kTry); [reflexivity|]. destruct (N.eqb k kExpr); [reflexivity|].
    destruct (N.eqb k kSubscript); reflexivity.
  - intros e n kws r Hk Ht Hs _. unfold post. change (N.eqb kCall kCall) with true. cbv iota.
    unfold special_ev in Hs. rewrite emit_parts_emit, Hk, Ht, Hs. unfold keepv. cbn [sub no_events orb]. now rewrite andb_false_r.
  - reflexivity.
  - reflexivity.
  - intros f args Hf Ha. unfold post. change (N.eqb kCall kCall) with true. cbv iota. now rewrite Ha, Hf.
  - reflexivity.
  - intros a b o H. lazy beta iota zeta delta [post kIfExp kCall N.eqb Pos.eqb]. now rewrite H.
  - intros t b o H1 H2. lazy beta iota zeta delta [post kIf kIfExp kCall N.eqb Pos.eqb]. now rewrite H1, H2.
  - intros im n o. destruct im; reflexivity.
  - intros v H. unfold stays in H. lazy beta iota zeta delta [post kExpr kTry kIf kIfExp kCall N.eqb Pos.eqb].
    destruct (emit_parts v) as [[[[ev nid] rest] kws]|]; [|reflexivity]. destruct (kw_value id_ret kws); [|discriminate].
    apply negb_true_iff in H. now rewrite H.
  - reflexivity.
Qed.

Lemma body_of_single u j : body_of (fun s _ => [s]) u j = u.
Proof. revert j. induction u as [|x u IH]; intros j; [reflexivity|]. cbn [body_of app]. now rewrite IH. Qed.
Lemma source_can : can_law no_events (fun _ s _ => [s]).
Proof.
  intros s [v Fv|ts v _ Fv| |t b o Ft _ _] im n;
    [rewrite stmt_form_expr|rewrite stmt_form_assign by (intros; reflexivity)|rewrite stmt_form_pass|rewrite stmt_form_if];
    rewrite ?rwe_none, ?body_of_single by assumption; destruct im; reflexivity.
Qed.

Lemma mod_doc_rest body : mod_doc body ++ mod_rest body = body.
Proof. destruct body as [|d rest]; [reflexivity|]. unfold mod_doc, mod_rest. now destruct (is_docstring_strict d). Qed.

Section ModuleErase.
  Variable c : rcfg.

  Theorem rw_module_erase m : in_frag m = true -> erase (rw_module c m) = Some [m].
  Proof.
    intros H. rewrite erase_is_gen.
    rewrite (rw_module_proj_can post no_events c post_laws (fun e (He : false = true) => False_ind _ (diff_false_true He)) eq_refl
               _ source_can m H).
    destruct (in_frag_view m H) as (body & -> & _). unfold module_can. cbn [sub no_events app].
    now rewrite body_of_single, app_nil_r, mod_doc_rest.
  Qed.
End ModuleErase.

Lemma erase_expr_stmt v : erase v = Some [v] -> emit_parts v = None -> erase (expr_stmt v) = Some [expr_stmt v].
Proof.
  rewrite !erase_is_gen. intros H He. apply (eg_expr_stmt post no_events post_laws v v H). unfold stays. now rewrite He.
Qed.

(* the fragment needs none of the deliberate source changes (`norm`), so the erasure certificate holds for the model's output *)
Lemma norm_T k sc fs :
  N.eqb k kSlice = false -> N.eqb k kExceptHandler = false -> N.eqb k kFunctionDef = false -> N.eqb k kAsyncFunctionDef = false ->
  N.eqb k kFor = false -> N.eqb k kAsyncFor = false -> N.eqb k kWhile = false ->
  norm (T k sc fs) = T k sc (map (map norm) fs).
Proof.
  intros H1 H2 H3 H4 H5 H6 H7. cbn [norm]. rewrite H1, H2, H3, H4, H5, H6, H7. cbn [orb]. reflexivity.
Qed.
Lemma map_id_in {A} (f : A -> A) l : (forall x, In x l -> f x = x) -> map f l = l.
Proof. intros H. rewrite <- (map_id l) at 2. now apply map_ext_in. Qed.

Theorem norm_frag_e : forall t, frag_e t -> norm t = t.
Proof.
  induction 1 as [k|x Hx|x Hx|v e He|l op r _ IHl _ IHo _ IHr|l ops c0 cs _ IHl _ IHops _ IHcs|op a _ IHo _ IHa|op vs _ IHo _ IHvs
                 |a b o _ IHa _ IHb _ IHo]; try reflexivity.
  - cbn [norm]. destruct (N.eqb k kSlice); [reflexivity|]. destruct (N.eqb k kExceptHandler); [reflexivity|].
    destruct (N.eqb k kFunctionDef || N.eqb k kAsyncFunctionDef); [reflexivity|].
    destruct (N.eqb k kFor || N.eqb k kAsyncFor); [reflexivity|]. destruct (N.eqb k kWhile); reflexivity.
  - rewrite norm_T by reflexivity. cbn [map]. now rewrite IHl, IHo, IHr.
  - rewrite norm_T by reflexivity. change (map (map norm) [[l]; ops; c0 :: cs]) with [[norm l]; map norm ops; map norm (c0 :: cs)].
    now rewrite IHl, (map_id_in norm ops), (map_id_in norm (c0 :: cs)).
  - rewrite norm_T by reflexivity. cbn [map]. now rewrite IHo, IHa.
  - rewrite norm_T by reflexivity. cbn [map]. now rewrite IHo, (map_id_in norm vs).
  - rewrite norm_T by reflexivity. cbn [map]. now rewrite IHa, IHb, IHo.
Qed.
Theorem norm_frag_s : forall s, frag_s s -> norm s = s.
Proof.
  induction 1 as [v Fv|ts v Fts Fv| |t b o Ft _ IHb _ IHo]; [| |reflexivity|]; rewrite norm_T by reflexivity; cbn [map].
  - now rewrite norm_frag_e.
  - rewrite (norm_frag_e v Fv), map_id_in; [reflexivity|]. intros x Hx. now apply norm_frag_e, Fts.
  - now rewrite (norm_frag_e t Ft), !map_id_in.
Qed.

Lemma scalars_eqb_refl sc : scalars_eqb sc sc = true.
Proof.
  induction sc as [|x sc IH]; [reflexivity|]. cbn. rewrite IH, andb_true_r.
  destruct x; cbn; auto using Bool.eqb_reflx, Z.eqb_refl, N.eqb_refl.
Qed.
Lemma tree_eqb_refl : forall t, tree_eqb t t = true.
Proof.
  induction t as [|k sc fs IH] using tree_ind2; [reflexivity|]. cbn [tree_eqb]. rewrite N.eqb_refl, scalars_eqb_refl. cbn [andb].
  induction IH as [|f fs Hf _ IHfs]; [reflexivity|]. rewrite IHfs, andb_true_r.
  induction Hf as [|x f Hx _ IHf]; [reflexivity|]. now rewrite Hx, IHf.
Qed.

(* the module docstring of a fragment module keeps its position in the model's output (the fragment has no other scopes) *)
Theorem rw_module_doc_head c m : in_frag m = true ->
  exists body' ti, rw_module c m = T kModule [] [body'; ti] /\ doc_head_ok body' = true.
Proof.
  intros H. pose proof (rw_module_erase c m H) as E. destruct (in_frag_view m H) as (body & -> & _).
  unfold rw_module in *. eexists _, _. split; [reflexivity|].
  set (B := mod_doc body ++ _) in *.
  assert (Eb : erase_stmts B = Some body).
  { rewrite erase_T in E. change (erase_fields [B; []]) with (match erase_list B with Some b => Some [b; []] | None => None end) in E.
    change (erase_stmts B) with (erase_list B). destruct (erase_list B) as [b|]; [|discriminate].
    rewrite post_other in E by reflexivity. congruence. }
  unfold doc_head_ok. rewrite Eb. destruct body as [|d rest]; [reflexivity|].
  destruct (is_docstring_strict d) eqn:Ed; [|reflexivity].
  subst B. unfold mod_doc. rewrite Ed. apply tree_eqb_refl.
Qed.

Theorem rw_module_certified c m : in_frag m = true -> check_erase m (rw_module c m) = true.
Proof.
  intros H. unfold check_erase. rewrite (rw_module_erase c m H).
  replace (norm m) with m; [apply tree_eqb_refl|].
  destruct (in_frag_view m H) as (body & -> & Hb). rewrite norm_T by reflexivity. cbn [map].
  rewrite map_id_in; [reflexivity|]. intros s Hs. now apply norm_frag_s, Hb.
Qed.
