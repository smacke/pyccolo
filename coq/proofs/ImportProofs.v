(* C12: which tracers an import is compiled for (compile_of / compile_later of model/Import.v).
   C13: every process of a history over one bytecode cache observes what it would observe on an empty cache. *)
From Coq Require Import List NArith Bool Arith.
Import ListNotations.
From PyccoloV Require Import model.Import proofs.ListFacts.
Local Open Scope N_scope.

Lemma filter_filter_or {A} (p q : A -> bool) l : filter p (filter (fun t => p t || q t) l) = filter p l.
Proof.
  induction l as [|x l IH]; [reflexivity|]. cbn [filter].
  destruct (p x) eqn:Ep; cbn [orb].
  - cbn [filter]. rewrite Ep. now f_equal.
  - destruct (q x); [cbn [filter]; rewrite Ep|]; exact IH.
Qed.

Lemma loader_finder stack f : loader_tracers (finder_tracers stack f) f = filter (fun t => t_accepts t f) stack.
Proof. apply (filter_filter_or (fun t => t_accepts t f)). Qed.

(* an import on the installing thread through an ordinary source loader: rewritten for EXACTLY the tracers of the stack
   that accept the file, in stack order; the stock compile when none accepts *)
Theorem compile_exact stack f :
  compile_of stack f true true =
    match filter (fun t => t_accepts t f) stack with [] => Stock | ts => Rewritten (map t_id ts) end.
Proof.
  unfold compile_of, wraps. cbn [andb]. rewrite <- loader_finder. now destruct (finder_tracers stack f).
Qed.
Theorem compile_stock_iff stack f :
  compile_of stack f true true = Stock <-> forall t, In t stack -> t_accepts t f = false.
Proof.
  rewrite compile_exact. split.
  - intros H t Hin. destruct (t_accepts t f) eqn:E; [|reflexivity].
    assert (Hf : In t (filter (fun t => t_accepts t f) stack)) by (apply filter_In; auto).
    destruct (filter (fun t => t_accepts t f) stack); [destruct Hf|discriminate].
  - intros H. now rewrite filter_none.
Qed.
Lemma filter_comm {A} (p q : A -> bool) l : filter p (filter q l) = filter q (filter p l).
Proof. induction l as [|x l IH]; cbn; auto. destruct (p x) eqn:Ep, (q x) eqn:Eq; cbn; rewrite ?Ep, ?Eq, IH; reflexivity. Qed.
(* a loader that loads later: rewritten for exactly the accepting tracers of the stack it was found under that are still on
   the stack it loads under *)
Theorem compile_later_exact found load f :
  compile_later found load f true true =
    match filter (fun t => existsb (N.eqb (t_id t)) (map t_id load)) (filter (fun t => t_accepts t f) found) with
    | [] => Stock | ts => Rewritten (map t_id ts) end.
Proof.
  unfold compile_later, wraps, live. cbn [andb]. rewrite <- loader_finder.
  unfold loader_tracers. rewrite (filter_comm (fun t => t_accepts t f)). now destruct (finder_tracers found f).
Qed.
(* after the context (nothing on the stack any more) it is a plain source loader *)
Theorem compile_later_after found f src same : compile_later found [] f src same = Stock.
Proof.
  unfold compile_later, live. destruct (wraps found f src same); [|reflexivity]. now rewrite filter_none.
Qed.
(* loading at once is the ordinary import *)
Theorem compile_later_now stack f src same : compile_later stack stack f src same = compile_of stack f src same.
Proof.
  unfold compile_later, compile_of, live. destruct (wraps stack f src same); [|reflexivity].
  assert (E : filter (fun t => existsb (N.eqb (t_id t)) (map t_id stack)) (finder_tracers stack f) = finder_tracers stack f).
  { apply filter_all. intros t Ht. apply existsb_eqb_In, in_map. unfold finder_tracers in Ht. apply filter_In in Ht. tauto. }
  now rewrite E.
Qed.
Theorem compile_other_loader stack f same_thread : compile_of stack f false same_thread = Stock.
Proof. unfold compile_of, wraps. now rewrite andb_false_r. Qed.
Theorem compile_other_thread stack f src : compile_of stack f src false = Stock.
Proof. reflexivity. Qed.
Theorem disabled_never_accepting stack f t : In t stack -> t_accepts t f = true ->
  (forall t', In t' stack -> t_id t' = t_id t -> t' = t) -> ~ In (t_id t) (disabled_during_exec stack f).
Proof.
  intros Hin Ha Huniq H. unfold disabled_during_exec in H. apply in_map_iff in H as (t' & Hid & Hf).
  apply filter_In in Hf as [Hf Hc]. unfold finder_tracers in Hf. apply filter_In in Hf as [Hf _].
  rewrite (Huniq t' Hf Hid) in Hc. now rewrite Ha in Hc.
Qed.

Lemma upd_same {A} (m : name -> option A) k v : upd m k v k = v.
Proof. unfold upd. destruct (name_eq_dec k k); [reflexivity|congruence]. Qed.
Lemma upd_other {A} (m : name -> option A) k v k' : k <> k' -> upd m k v k' = m k'.
Proof. intros H. unfold upd. destruct (name_eq_dec k k'); [congruence|reflexivity]. Qed.

(* the signature determines the instrumentation: configurations of the history with the same cache name are the same *)
Definition faithful (ws : list who) : Prop :=
  forall w1 w2, In w1 ws -> In w2 ws -> name_of w1 = name_of w2 -> w1 = w2.

Definition Inv (ws : list who) (s : fs) : Prop :=
  (forall nm c, pyc s nm = Some c -> name_of (c_who c) = nm /\ In (c_who c) ws) /\
  (forall nm i, pkl s nm = Some i -> exists c, pyc s nm = Some c /\ c_inst c = i /\ book (c_who c) = true).

Lemma inv0 ws : Inv ws fs0.
Proof. split; cbn; intros; discriminate. Qed.

Lemma inv_write ws s v n w cv i o : In w ws -> o = None \/ o = Some i /\ book w = true -> Inv ws s ->
  Inv ws {| ver := v; next_inst := n;
            pyc := upd (pyc s) (name_of w) (Some {| c_who := w; c_ver := cv; c_inst := i |});
            pkl := upd (pkl s) (name_of w) o |}.
Proof.
  intros Hin Ho [I1 I2]. split; cbn [pyc pkl]; intros nm x; destruct (name_eq_dec (name_of w) nm) as [<-|Hne].
  - rewrite upd_same. intros [= <-]. auto.
  - rewrite upd_other by exact Hne. apply I1.
  - rewrite !upd_same. intros H. destruct Ho as [->|[-> Hb]]; [discriminate|]. injection H as <-. eauto.
  - rewrite !upd_other by exact Hne. apply I2.
Qed.

Lemma step_fresh ws s p : faithful ws -> In (p_who p) ws -> Inv ws s ->
  Inv ws (fst (step s p)) /\ snd (step s p) = fresh_obs p.
Proof.
  intros Hf Hin I. unfold step, fresh_obs.
  set (v := if p_edit p then ver s + 1 else ver s).
  set (nm := name_of (p_who p)).
  (* the invariant only speaks of the cache files *)
  assert (Hs1 : Inv ws {| ver := v; next_inst := next_inst s + 1; pyc := pyc s; pkl := pkl s |}) by exact I.
  set (compile_and_write := if p_write p then _ else _).
  assert (Hcw : Inv ws (fst compile_and_write) /\ snd compile_and_write = (p_who p, true)).
  { unfold compile_and_write. destruct (p_write p); [|auto]. split; [|reflexivity].
    destruct (book (p_who p) && negb (p_raises p)) eqn:Eb; apply inv_write; auto.
    right. apply andb_prop in Eb. tauto. }
  clearbody compile_and_write.
  destruct (p_caching p); cbn [negb]; [|auto].
  destruct (pyc s nm) as [c|] eqn:Ec; [|exact Hcw].
  destruct (N.eqb (c_ver c) v); [|exact Hcw].
  (* a cached entry under this name was compiled for this very configuration *)
  destruct I as [I1 I2]. destruct (I1 _ _ Ec) as [Hn Hw]. rewrite (Hf _ _ Hw Hin Hn).
  destruct (book (p_who p)); [|auto].
  destruct (pkl s nm) as [i|] eqn:Ei; cbn [fst snd]; [|auto].
  destruct (I2 _ _ Ei) as (c' & Hc' & <- & _). rewrite Ec in Hc'. injection Hc' as <-. rewrite N.eqb_refl. auto.
Qed.

(* every process of every history observes what it would observe on an empty cache: it runs the code of its own
   configuration, compiled from the current source, with the node table of that very compilation *)
Theorem run_fresh ws : faithful ws -> forall ps s, Forall (fun p => In (p_who p) ws) ps -> Inv ws s ->
  run s ps = map fresh_obs ps.
Proof.
  intros Hf. induction ps as [|p ps IH]; intros s Hall Hi; [reflexivity|].
  inversion Hall as [|? ? Hp Hps]; subst. cbn [run map].
  destruct (step_fresh ws s p Hf Hp Hi) as [Hi' Ho]. destruct (step s p) as [s' o]. cbn [fst snd] in *.
  rewrite Ho. f_equal. now apply IH.
Qed.
Corollary history_fresh ps : faithful (map p_who ps) -> run fs0 ps = map fresh_obs ps.
Proof.
  intros Hf. apply (run_fresh (map p_who ps) Hf); [|apply inv0].
  apply Forall_forall. intros p Hp. now apply in_map.
Qed.

(* plain imports and traced imports never share a cache entry: the plain name belongs to stock compiles only *)
Lemma plain_name_only_stock w : name_of w = [] -> w = [].
Proof. destruct w; [reflexivity|discriminate]. Qed.

(* the hypothesis is needed: two configurations with one signature but different instrumentation (recorded finding) *)
Definition ex_p1 : proc := {| p_who := [(1, 1, (0, false))]; p_caching := true; p_write := true; p_edit := false; p_raises := false |}.
Definition ex_p2 : proc := {| p_who := [(1, 1, (5, false))]; p_caching := true; p_write := true; p_edit := false; p_raises := false |}.
Theorem fresh_refuted : exists ps, run fs0 ps <> map fresh_obs ps.
Proof. exists [ex_p1; ex_p2]. vm_compute. discriminate. Qed.
