(* C19 - a decorated function is the instrumented version of the same function.
   What is proved (model/Decor.v on top of the context machine model/Ctx.v, which C06 / C07 tie to tracer.py):
   * C19_scoped: a call of a function decorated with ANY list of tracers, from ANY reachable state (also from inside other
     tracing contexts), whether the function returns or raises, leaves the tracer stack, every tracer's enabled / disabled
     flags, the emit hook, guard names, the interpreter's trace function and the import finder exactly as they were;
   * C19_not_left_active: from a state with no active context, after the call no context is active and no hook is left;
   * C19_delivery: during the call the function body's events reach exactly the tracers of the decorator's list (plus
     tracers that were already receiving function-body events), also when the body raises afterwards;
   * C19_select_first: the code object taken is the first code constant carrying the function's name;
   * C19_find_code_*: the level-by-level search of find_function_code over code-object trees (type-parameter scopes only).
   Results / exceptions / name / docstring / node validity / independence of several decorated functions are decided by
   ./check C19 on real module files (the rewrite of the function body itself is C01's and C02's subject). *)
From Coq Require Import List NArith Bool Arith.
Import ListNotations.
From PyccoloV Require Import model.Ctx model.Decor proofs.CtxProofs proofs.DecorProofs.

Theorem C19_scoped : forall cfg ts body s sp, Inv s -> Rel s sp -> Forall (fun t => t < ntr s) ts -> wf_items (ntr s) body ->
  let s' := snd (fst (run_items cfg (wrap ts body) s)) in core_eq s s' /\ Inv s'.
Proof. exact call_scoped. Qed.
Print Assumptions C19_scoped.

Theorem C19_not_left_active : forall cfg ts body s, Inv s -> stack s = [] -> wf_items (ntr s) (wrap ts body) ->
  let s' := snd (fst (run_items cfg (wrap ts body) s)) in
  core_eq s s' /\ Inv s' /\ stack s' = [] /\ emit_present s' = false /\ guards_live s' = false /\ thunk_owner s' = None /\ lam_owner s' = None.
Proof. intros cfg ts body. exact (restore_general cfg (wrap ts body)). Qed.
Print Assumptions C19_not_left_active.

Theorem C19_delivery : forall cfg ts raises s sp, Inv s -> Rel s sp -> Forall (fun t => t < ntr s) ts -> length sp = ntr s ->
  view_log (ntr s) (snd (run_items cfg (wrap ts (fbody raises)) s)) =
    [(KFunc, map (fun u => memb u ts || spec_fires sp u) (seq 0 (ntr s)))].
Proof. exact call_delivery. Qed.
Print Assumptions C19_delivery.

Theorem C19_select_first : forall name pre c post,
  (forall x, In (Some x) pre -> x <> name) -> c = name -> select name (pre ++ Some c :: post) = Some (length pre).
Proof. exact select_first. Qed.
Print Assumptions C19_select_first.

(* tracer.find_function_code, over code-object trees.  What is taken carries the function's name and is reachable
   from the module code through type-parameter scopes only - never a function nested in an ordinary function (the decorated
   function's own nested function of the same name); a constant of the module with the name wins, the first such;
   the code of `def f[T](...)` is found one level down, in `<generic parameters of f>` (a search among the module's constants alone
   does not find it and nothing is swapped: repaired by f44fd25). *)
Theorem C19_find_code_sound : forall fuel level name c, find_code fuel level name = Some c -> co_name c = name /\ greach level c.
Proof. exact find_code_sound. Qed.
Print Assumptions C19_find_code_sound.
Theorem C19_find_code_top : forall k level name c, level <> [] ->
  find (fun c => N.eqb (co_name c) name) (next_consts level) = Some c -> find_code (S k) level name = Some c.
Proof. exact find_code_top. Qed.
Print Assumptions C19_find_code_top.
Theorem C19_find_code_generic : forall k m name g c,
  find (fun c => N.eqb (co_name c) name) (co_consts m) = None -> filter co_generic (co_consts m) = [g] ->
  find (fun c => N.eqb (co_name c) name) (co_consts g) = Some c -> find_code (S (S k)) [m] name = Some c.
Proof. exact find_code_generic. Qed.
Print Assumptions C19_find_code_generic.
(* module [ f(7) [ f(7) nested ] ; <generic parameters of g> [ g(8) [ g(8) nested ] ] ]: f is the module's constant, not its nested
   namesake; g is found inside its type-parameter scope; a name that only occurs nested in an ordinary function is not found *)
Example C19_find_code_nonvacuous :
  let m := CO 0 1 false [CO 1 7 false [CO 2 7 false []; CO 3 9 false []]; CO 4 2 true [CO 5 8 false [CO 6 8 false []]]] in
  option_map co_uid (find_code 5 [m] 7) = Some 1%N /\ option_map co_uid (find_code 5 [m] 8) = Some 5%N /\ find_code 5 [m] 9 = None.
Proof. vm_compute. repeat split; reflexivity. Qed.

(* non-vacuity: three tracers, the function is decorated with [2; 0] and raises: both get the body's events, tracer 1 does
   not, and the state afterwards is the initial one *)
Definition ex_cfg (t : nat) : tcfg := {| has_sys := Nat.eqb t 0; patch_meta := true |}.
Example C19_nonvacuous :
  let s0 := init_cst 3 TfNone in
  let r := run_items ex_cfg (wrap [2; 0] (fbody true)) s0 in
  view_log 3 (snd r) = [(KFunc, [true; false; true])] /\ fst (fst r) = true /\ stack (snd (fst r)) = [] /\ cur_trace (snd (fst r)) = TfNone.
Proof. vm_compute. repeat split; reflexivity. Qed.
