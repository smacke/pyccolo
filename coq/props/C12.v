(* C12 - imports are instrumented exactly when the tracer opts the file in.
   model/Import.v (part 1) is the decision logic of TraceFinder.find_spec, TraceLoader.get_tracers_for_path /
   source_to_code / exec_module and _file_passes_filter_impl; it is tied to import_hooks.py by ./check C12, which imports
   generated packages in real subprocesses under stacks of tracers with different filename filters and compares, per module and
   per tracer, who got events with compile_of / receives evaluated in coqc (and namespaces / event streams with the plain and
   the one-tracer processes). That nothing is instrumented after the context is C07's finder-removal theorem plus the
   post-context imports of the same runs. *)
From Coq Require Import List NArith Bool.
Import ListNotations.
From PyccoloV Require Import model.Import proofs.ImportProofs.

(* rewritten for EXACTLY the accepting tracers of the stack, in stack order; stock compile when none accepts *)
Theorem C12_iff : forall stack f,
  compile_of stack f true true =
    match filter (fun t => t_accepts t f) stack with [] => Stock | ts => Rewritten (map t_id ts) end.
Proof. exact compile_exact. Qed.
Print Assumptions C12_iff.
Theorem C12_plain_iff : forall stack f,
  compile_of stack f true true = Stock <-> forall t, In t stack -> t_accepts t f = false.
Proof. exact compile_stock_iff. Qed.
Print Assumptions C12_plain_iff.
(* modules that are not ordinary source files, and imports on other threads, are never touched *)
Theorem C12_other_loader : forall stack f same_thread, compile_of stack f false same_thread = Stock.
Proof. exact compile_other_loader. Qed.
Print Assumptions C12_other_loader.
Theorem C12_other_thread : forall stack f src, compile_of stack f src false = Stock.
Proof. exact compile_other_thread. Qed.
Print Assumptions C12_other_thread.
(* a loader handed out under one stack and loading under another (lazy loading, a spec kept for later): rewritten for exactly the
   accepting tracers of the first that are still on the second; after the context - nothing on the stack - it is a plain loader
   ("nothing is instrumented after the context"; a loader that goes on rewriting for the tracers it holds is the defect repaired
   by e42320a) *)
Theorem C12_later_iff : forall found load f,
  compile_later found load f true true =
    match filter (fun t => existsb (N.eqb (t_id t)) (map t_id load)) (filter (fun t => t_accepts t f) found) with
    | [] => Stock | ts => Rewritten (map t_id ts) end.
Proof. exact compile_later_exact. Qed.
Print Assumptions C12_later_iff.
Theorem C12_after_context : forall found f src same, compile_later found [] f src same = Stock.
Proof. exact compile_later_after. Qed.
Print Assumptions C12_after_context.
Theorem C12_later_now : forall stack f src same, compile_later stack stack f src same = compile_of stack f src same.
Proof. exact compile_later_now. Qed.
Print Assumptions C12_later_now.
(* while a module body runs, no tracer that accepts the module is switched off *)
Theorem C12_accepting_stay_enabled : forall stack f t, In t stack -> t_accepts t f = true ->
  (forall t', In t' stack -> t_id t' = t_id t -> t' = t) -> ~ In (t_id t) (disabled_during_exec stack f).
Proof. exact disabled_never_accepting. Qed.
Print Assumptions C12_accepting_stay_enabled.

(* non-vacuity: three tracers, the middle one accepts file 7, the last one only wants its import events *)
Local Open Scope N_scope.
Definition mk (i : N) (acc : N -> bool) (imp : bool) : tracer := {| t_id := i; t_accepts := acc; t_import_events := fun _ => imp; t_enabled := true |}.
Definition ex_stack : list tracer := [mk 1 (fun _ => false) false; mk 2 (N.eqb 7) false; mk 3 (fun _ => false) true].
Example C12_nonvacuous :
  compile_of ex_stack 7 true true = Rewritten [2] /\ compile_of ex_stack 8 true true = Stock
  /\ disabled_during_exec ex_stack 7 = [3] /\ wraps ex_stack 8 true true = true.
Proof. vm_compute. repeat split; reflexivity. Qed.
