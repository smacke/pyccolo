(* C11 - conditional handlers run exactly where their condition says.
   model/Pred.v: predicate structures (Predicate.TRUE / FALSE, base conditions static or dynamic, any / all composites), their
   evaluation as the code performs it (p(node), p.dynamic_call(node), .static), the emission-site decision of the rewriter
   (one any-composite over ALL handlers of the event), the per-handler delivery test of _emit_event and the local-guard
   conditional.  Every boolean decision is taken from gen/PredGen.v, REGENERATED from predicate.py / tracer.py /
   ast_rewriter.py on every run, so these theorems are re-checked against what the code says.
   `holds env p` is what the condition means: the boolean combination of its base conditions at the node. *)
From Coq Require Import List NArith Bool Arith.
Import ListNotations.
From PyccoloV Require Import gen.PredGen model.Pred proofs.PredProofs.

(* the code's evaluation of a condition is its meaning; dynamic_call is `True` for wholly static conditions and the
   meaning otherwise (in particular for composites mixing static and dynamic parts) *)
Theorem C11_condition_meaning : forall env p, wf p = true ->
  callp env p = holds env p /\ dynp env p = (if p_static p then true else holds env p).
Proof. exact evalp_meaning. Qed.
Print Assumptions C11_condition_meaning.

(* any / all are the boolean combinations of their parts (after coalescing), for every list of conditions ... *)
Theorem C11_any : forall env ps, ps <> [] -> holds env (pany ps) = existsb (holds env) ps.
Proof. exact pany_meaning. Qed.
Print Assumptions C11_any.
Theorem C11_all : forall env ps, holds env (pall ps) = forallb (holds env) ps.
Proof. exact pall_meaning. Qed.
Print Assumptions C11_all.
(* ... except any([]), which is Predicate.TRUE (asserted by the suite's test_static_coalescing; recorded finding) *)
Theorem C11_any_empty_refuted : exists env, holds env (pany []) <> existsb (holds env) [].
Proof. exists (fun _ => true). cbn. discriminate. Qed.
Print Assumptions C11_any_empty_refuted.

(* where the handler with condition p runs, among the handlers hs of its event (all stacked tracers) *)
Theorem C11_invoked_char : forall env hs p, hs <> [] -> forallb wf hs = true -> wf p = true ->
  invoked env hs p = existsb (holds env) hs && (p_static p || holds env p).
Proof. exact invoked_char. Qed.
Print Assumptions C11_invoked_char.

(* exactly where the condition holds: for every condition that is not wholly static, whatever else is registered ... *)
Theorem C11_exact_partial : forall env hs p, In p hs -> forallb wf hs = true -> p_static p = false ->
  invoked env hs p = holds env p.
Proof. exact invoked_exact_nonstatic. Qed.
Print Assumptions C11_exact_partial.
(* ... and for every condition, static ones included, when the handler is the only one of its event *)
Theorem C11_exact_sole : forall env p, wf p = true -> invoked env [p] p = holds env p.
Proof. exact invoked_exact_sole. Qed.
Print Assumptions C11_exact_sole.
(* no occurrence whose node satisfies the condition is ever missed *)
Theorem C11_no_miss : forall env hs p, In p hs -> forallb wf hs = true -> holds env p = true -> invoked env hs p = true.
Proof. exact invoked_no_miss. Qed.
Print Assumptions C11_no_miss.
(* the full statement fails for a wholly static condition sharing its event with another handler (recorded finding) *)
Theorem C11_exact_refuted : exists env hs p, In p hs /\ forallb wf hs = true /\ invoked env hs p = true /\ holds env p = false.
Proof. exact static_shared_refuted. Qed.
Print Assumptions C11_exact_refuted.

(* local guards: when the guarded handlers of a site name one guard x, the handler is skipped - and the pristine
   expression evaluated instead of the emit call - exactly while x is set in the module's globals *)
Theorem C11_guard_partial : forall env G hs gs p x, In x gs -> (forall y, In y gs -> y = x) ->
  invoked_g env G hs gs p (Some x) = negb (G x) && invoked env hs p /\ pristine_taken G gs = G x.
Proof. exact guard_exact. Qed.
Print Assumptions C11_guard_partial.
Theorem C11_unguarded_site : forall env G hs p, invoked_g env G hs [] p None = invoked env hs p.
Proof. exact unguarded_site. Qed.
Print Assumptions C11_unguarded_site.
(* two handlers of one event naming different guards: setting one silences the other too (recorded finding) *)
Theorem C11_guard_refuted : exists env G hs gs p,
  In p hs /\ holds env p = true /\ In 2%N gs /\ G 2%N = false /\ invoked_g env G hs gs p (Some 2%N) = false.
Proof. exact guard_other_refuted. Qed.
Print Assumptions C11_guard_refuted.

(* conditions that raise on some nodes (`n.func.id == "f"` asked about a method call): evalx / site_x / invoked_x follow Python's
   evaluation order and exceptions (None = an exception leaves the evaluation; for site_x: it leaves AstRewriter.visit and nothing
   is rewritten).  The rewrite is never aborted, whatever the registration order, and every handler runs exactly where the reading
   "a condition that raises for a node is not satisfied by it" says - so every theorem above applies with env := total envx. *)
Theorem C11_raising_conditions : forall envx hs p, invoked_x envx hs p = Some (invoked (total envx) hs p).
Proof. exact invoked_x_total. Qed.
Print Assumptions C11_raising_conditions.
Theorem C11_raising_conditions_guarded : forall envx G hs gs p g, invoked_gx envx G hs gs p g = Some (invoked_g (total envx) G hs gs p g).
Proof. exact invoked_gx_total. Qed.
Print Assumptions C11_raising_conditions_guarded.
Theorem C11_raising_evaluation : forall envx p,
  tot (fst (evalx envx p)) = callp (total envx) p /\ tot (snd (evalx envx p)) = dynp (total envx) p /\ never_raises envx p.
Proof. exact evalx_total. Qed.
Print Assumptions C11_raising_evaluation.
(* non-vacuity: condition 0 raises at the node, condition 1 holds: in either registration order the site is rewritten, the handler
   of condition 1 runs and the handler of condition 0 does not (parts evaluated unguarded make the order [c0; c1] abort the rewrite:
   repaired by c224119) *)
Example C11_raising_nonvacuous :
  let envx := fun c => if N.eqb c 0 then None else Some true in
  let p0 := PBase false 0 in let p1 := PBase false 1 in
  evalx envx p0 = (None, None)
  /\ invoked_x envx [p0; p1] p1 = Some true /\ invoked_x envx [p1; p0] p1 = Some true
  /\ invoked_x envx [p0; p1] p0 = Some false /\ invoked_x envx [p1; p0] p0 = Some false.
Proof. vm_compute. repeat split; reflexivity. Qed.

(* non-vacuity: all([static c0, dynamic c1]) next to an unconditional handler: invoked exactly where c0 and c1 hold *)
Definition ex_p : pred := pall [PBase true 0; PBase false 1].
Example C11_nonvacuous :
  wf ex_p = true /\ p_static ex_p = false
  /\ invoked (fun c => true) [ex_p; PTrue] ex_p = true
  /\ invoked (fun c => N.eqb c 1) [ex_p; PTrue] ex_p = false
  /\ invoked (fun c => N.eqb c 0) [ex_p; PTrue] ex_p = false.
Proof. vm_compute. repeat split; reflexivity. Qed.
