(* C15 - exec returns exactly the program's own bindings; no internal name leaks.
   Model: model/Sandbox.v (the scaffold of tracer.exec around the spliced program), tied to tracer.py by the K-sbx
   correspondence of ./check C15.  eval is a direct delegation to the built-in eval on the rewritten expression and
   is covered by the correspondence and the oracle only.
   user_map / user_prog: every name is an ordinary name (not "__", "builtins", "@..." or an _X5ix name). *)
From Coq Require Import List ZArith NArith Bool.
Import ListNotations.
From PyccoloV Require Import model.Sandbox proofs.SandboxProofs.

(* when every supplied name is a parameter of the sandbox function (none is declared global by the program, none is a keyword
   or a non-identifier): the very mapping of the reference *)
Theorem C15_result_partial : forall L G p, user_map L -> user_map G -> user_prog p -> plain_locals L p -> raises_after p = None ->
  exec_model L G p = (Some (fst (spec_result L G p)), L, snd (spec_result L G p)).
Proof. exact exec_refines. Qed.
Print Assumptions C15_result_partial.
(* in general (supplied names the program declares global, or that cannot be parameter names, are handed back unchanged): the
   result holds, name by name, what the reference holds *)
Theorem C15_result_passthrough : forall L G p, user_map L -> user_map G -> user_prog p -> wf_prog p -> raises_after p = None ->
  exists res, exec_model L G p = (Some res, L, snd (spec_result L G p)) /\ forall k, aget res k = aget (fst (spec_result L G p)) k.
Proof. exact exec_passthrough. Qed.
Print Assumptions C15_result_passthrough.
(* what is missing for the full statement: programs that bind the names `__` or `builtins` (next theorem) *)
Theorem C15_result_refuted :
  exists p, raises_after p = None /\
    aget (fst (spec_result [] [] p)) n_builtins = Some 5%Z /\
    (match fst (fst (exec_model [] [] p)) with Some res => aget res n_builtins | None => None end) = None.
Proof. exact reserved_names_refuted. Qed.
Print Assumptions C15_result_refuted.

(* locals IS globals (exec at module level without mappings, or with only a globals mapping): one mapping M, in which the scaffold
   parks its two names while the program runs and which `global k; k = v` writes.  Afterwards M holds, name by name, what the
   reference's globals hold (the scaffold names are gone); the result holds the reference's locals for the names that are
   parameters, and for the supplied names that are not (declared global by the program, or no possible parameter name) their
   FINAL value in the mapping *)
Theorem C15_same_mapping : forall M p, user_map M -> user_prog p -> wf_prog p -> raises_after p = None ->
  exists res M', exec_same M p = (Some res, M') /\
    (forall k, aget M' k = aget (snd (spec_same M p)) k) /\
    (forall k, aget res k =
       if is_param (gdecl p) k then aget (fst (spec_same M p)) k
       else if usable k && existsb (N.eqb k) (keys M) then aget (snd (spec_same M p)) k else None).
Proof. exact exec_same_refines. Qed.
Print Assumptions C15_same_mapping.
Theorem C15_same_mapping_raises : forall M p i, user_map M -> user_prog p -> raises_after p = Some i ->
  exists M', exec_same M p = (None, M') /\
    forall k, aget M' k = aget (snd (run_ops (firstn i (ops p)) (filter (fun kv => is_param (gdecl p) (fst kv)) M, M))) k.
Proof. exact exec_same_raises. Qed.
Print Assumptions C15_same_mapping_raises.
(* `counter = 0` at module level, then exec("global counter; counter = 7; y = 3") with no mappings: counter is 7 in the module
   and in the result, y is in the result only *)
Example C15_same_nonvacuous :
  let M : assoc := [(10%N, 0%Z); (12%N, 5%Z)] in
  let p := {| ops := [GBind 10%N 7%Z; Bind 11%N 3%Z]; raises_after := None; gdecl := [10%N] |} in
  exec_same M p = (Some [(12%N, 5%Z); (11%N, 3%Z); (10%N, 7%Z)], [(12%N, 5%Z); (10%N, 7%Z)]).
Proof. vm_compute. reflexivity. Qed.

Theorem C15_raises : forall L G p i, user_map L -> user_map G -> user_prog p -> raises_after p = Some i ->
  exec_model L G p = (None, L, snd (run_ops (firstn i (ops p)) (L, G))).
Proof. exact exec_raises. Qed.
Print Assumptions C15_raises.

Theorem C15_clean : forall L G p, user_map L -> user_map G -> user_prog p ->
  let '(r, L', G') := exec_model L G p in
  clean L' /\ clean G' /\ match r with Some res => clean res | None => True end.
Proof. exact exec_clean. Qed.
Print Assumptions C15_clean.

Example C15_nonvacuous :
  let L : assoc := [(10%N, 1%Z); (11%N, 2%Z)] in let G : assoc := [(20%N, 7%Z)] in
  let p := {| ops := [Bind 12%N 3%Z; Del 10%N; GBind 21%N 4%Z; Bind 11%N 9%Z]; raises_after := None; gdecl := [21%N] |} in
  user_map L /\ user_map G /\ user_prog p /\ plain_locals L p /\
  exec_model L G p = (Some [(12%N, 3%Z); (11%N, 9%Z)], L, [(20%N, 7%Z); (21%N, 4%Z)]).
Proof.
  cbn zeta. split; [|split; [|split; [|split]]].
  - intros k [<-|[<-|[]]]; discriminate.
  - intros k [<-|[]]; discriminate.
  - intros o [<-|[<-|[<-|[<-|[]]]]]; discriminate.
  - intros k [<-|[<-|[]]]; reflexivity.
  - reflexivity.
Qed.
(* `global counter; counter = 7` with a supplied local `counter` (name 10), next to a supplied key 'class' (name 30): the local
   `counter` and 'class' come back unchanged, the global is bound (a SyntaxError in both cases is the defect repaired by 028d715) *)
Example C15_passthrough_nonvacuous :
  let L : assoc := [(10%N, 0%Z); (30%N, 5%Z); (11%N, 2%Z)] in
  let p := {| ops := [GBind 10%N 7%Z; Bind 11%N 3%Z]; raises_after := None; gdecl := [10%N] |} in
  user_map L /\ user_prog p /\ wf_prog p /\ ~ plain_locals L p /\
  exec_model L [] p = (Some [(11%N, 3%Z); (10%N, 0%Z); (30%N, 5%Z)], L, [(10%N, 7%Z)]).
Proof.
  cbn zeta. split; [|split; [|split; [|split]]].
  - intros k [<-|[<-|[<-|[]]]]; discriminate.
  - intros o [<-|[<-|[]]]; discriminate.
  - intros o [<-|[<-|[]]]; [now left|split; [reflexivity|intros [H|[]]; discriminate]].
  - intros H. specialize (H 10%N (or_introl eq_refl)). vm_compute in H. discriminate.
  - reflexivity.
Qed.
