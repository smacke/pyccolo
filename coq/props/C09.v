(* C09 - system-trace handlers see every event, disturb nothing, and coexist.
   Model: model/SysTrace.v = CPython 3.12's trace protocol + tracer.py's _sys_tracer / composed tracers, over runs given
   as trees of frames (each frame: whether the tracer's file filter accepts it, a name, and its line / exception events
   and nested frames in order; a generator resumption is a separate frame).  Tied to tracer.py and to the interpreter
   by the K-sys correspondence of ./check C09 (real sys.settrace recorders).
   `events n` is what a plain recorder accepting the same files sees. *)
From Coq Require Import List NArith Bool.
Import ListNotations.
From PyccoloV Require Import model.SysTrace proofs.SysTraceProofs.
From PyccoloV Require gen.SysFlags model.SysHist proofs.SysHistProofs.

(* for every run, every subscription (any subset of call/line/return/exception) and every third-party trace function
   installed before: the handlers are invoked exactly once per subscribed interpreter event of accepted frames, in
   order ... *)
Theorem C09_handler_log : forall c n,
  handler_log (run c VSys n) = filter (fun e => sub c (fst e)) (events n).
Proof. intros c n. exact (proj1 (all_good c n)). Qed.
Print Assumptions C09_handler_log.

(* ... and the third-party function (whether it returns itself, a distinct local function, or declines frames)
   receives exactly the events it receives without pyccolo, each through the same one of its functions *)
Theorem C09_third_party : forall c n,
  third_log (run c VSys n) = third_log (run c (global_of c) n).
Proof. intros c n. exact (proj2 (all_good c n)). Qed.
Print Assumptions C09_third_party.

(* non-vacuity: a return-only subscription sees the returns of accepted frames (a tracer without a 'call' handler traces all
   the same: repair 94272a9), a selective third party is not handed events of the frame it declined *)
Local Open Scope N_scope.
Definition ex_run : node :=
  Nd (TFrame true 1) [Nd TLine []; Nd (TFrame true 2) [Nd TLine []; Nd TExc []]; Nd (TFrame false 3) [Nd TLine []]; Nd TLine []].
Definition ex_cfg : cfg :=
  {| sub := fun e => match e with SRet => true | _ => false end;
     tp := Some {| tp_accepts := fun nm => negb (N.eqb nm 2); tp_self := false |} |}.
Example C09_nonvacuous :
  handler_log (run ex_cfg VSys ex_run) = [(SRet, 2); (SRet, 1)] /\
  third_log (run ex_cfg VSys ex_run) =
    [(WG, SCall, 1); (WL, SLine, 1); (WG, SCall, 2); (WG, SCall, 3); (WL, SLine, 3); (WL, SRet, 3); (WL, SLine, 1); (WL, SRet, 1)].
Proof. vm_compute. split; reflexivity. Qed.

(* HISTORIES: user code calls sys.settrace(A) / sys.settrace(B) / sys.settrace(None) while the program runs (model/SysHist.v: a plain
   machine for CPython's protocol with a mutable global trace function, a pyccolo machine in which the global function is always the
   composed tracer and `existing_tracer` is what user code last installed).  gen/SysFlags.v is REGENERATED from tracer.py and says whether
   _call_existing_tracer skips an uninstalled third party, whether frames the tracer does not trace get a composed local function, and
   whether a third party's local function that returns another local function is followed; the theorem is stated for those flags, so it
   only type-checks while all three hold.
   For every family of third-party functions, every subscription, every run (frames the tracer accepts or not, nested, with settrace
   calls anywhere) and every function installed beforehand: the function in place afterwards is the one user code left, the third-party
   functions receive exactly the events they receive without pyccolo (each through the same one of its functions), and the handlers see
   the plain event stream of the accepted frames filtered by the subscription - also while no third-party function is installed. *)
Theorem C09_histories : forall tps sub n g,
  fst (SysHist.pyc tps sub SysFlags.sys_checks_uninstall SysFlags.sys_wraps_foreign SysFlags.sys_rebinds_local g n) = fst (SysHist.plain tps g n) /\
  SysHist.third_log (snd (SysHist.pyc tps sub SysFlags.sys_checks_uninstall SysFlags.sys_wraps_foreign SysFlags.sys_rebinds_local g n)) = snd (SysHist.plain tps g n) /\
  SysHist.handler_log (snd (SysHist.pyc tps sub SysFlags.sys_checks_uninstall SysFlags.sys_wraps_foreign SysFlags.sys_rebinds_local g n)) =
    filter (fun e => sub (fst e)) (SysHist.events n).
Proof. intros tps sub n g. exact (SysHistProofs.all_good tps sub n g). Qed.
Print Assumptions C09_histories.

(* a third party whose local function hands over to another local function (debuggers: until the first line, then the rest) is part
   of C09_histories (tp_switch); without following the hand-over the first function keeps receiving everything *)
Theorem C09_no_rebind_refuted :
  SysHist.third_log (snd (SysHist.pyc SysHistProofs.tp_sw (fun _ => true) true true false (Some 0%nat) SysHistProofs.ex_sw)) <>
    snd (SysHist.plain SysHistProofs.tp_sw (Some 0%nat) SysHistProofs.ex_sw)
  /\ snd (SysHist.plain SysHistProofs.tp_sw (Some 0%nat) SysHistProofs.ex_sw) =
       [(SysHist.WG 0, SysHist.SCall, 1%N); (SysHist.WL 0, SysHist.SLine, 1%N); (SysHist.WL2 0, SysHist.SLine, 1%N); (SysHist.WL2 0, SysHist.SRet, 1%N)].
Proof. exact SysHistProofs.no_rebind_refuted. Qed.
Print Assumptions C09_no_rebind_refuted.
(* the two repaired defects, kept as checked witnesses (an uninstalled function still called in a running frame: of an accepted file,
   a74b46b; of a file the tracer does not accept, 2ad2710) *)
Theorem C09_histories_refuted :
  SysHist.third_log (snd (SysHist.pyc SysHistProofs.tp_all (fun _ => true) false true true (Some 0%nat) (SysHistProofs.ex_hist true))) <>
    snd (SysHist.plain SysHistProofs.tp_all (Some 0%nat) (SysHistProofs.ex_hist true)) /\
  SysHist.third_log (snd (SysHist.pyc SysHistProofs.tp_all (fun _ => true) true false true (Some 0%nat) (SysHistProofs.ex_hist false))) <>
    snd (SysHist.plain SysHistProofs.tp_all (Some 0%nat) (SysHistProofs.ex_hist false)).
Proof. exact (conj SysHistProofs.no_uninstall_check_refuted SysHistProofs.raw_foreign_refuted). Qed.
Print Assumptions C09_histories_refuted.

Example C09_histories_nonvacuous :
  let n := SysHist.Nd (SysHist.TFrame true 1) [SysHist.Nd SysHist.TLine []; SysHist.Nd (SysHist.TSet None) []; SysHist.Nd SysHist.TLine [];
                                               SysHist.Nd (SysHist.TSet (Some 1%nat)) []; SysHist.Nd SysHist.TLine []] in
  snd (SysHist.plain SysHistProofs.tp_all (Some 0%nat) n) =
    [(SysHist.WG 0, SysHist.SCall, 1); (SysHist.WL 0, SysHist.SLine, 1); (SysHist.WL 0, SysHist.SLine, 1); (SysHist.WL 0, SysHist.SRet, 1)] /\
  fst (SysHist.plain SysHistProofs.tp_all (Some 0%nat) n) = Some 1%nat.
Proof. vm_compute. split; reflexivity. Qed.
