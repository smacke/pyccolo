(* C14 - augmented syntax marks exactly the augmented nodes.
   Model: model/Augment.v = replace_tokens_and_get_augmented_positions + fix_positions, tied to syntax_augmentation.py by
   the K-aug correspondence of ./check C14 (every replacement pass and every line of every generated source).
   The theorem is about fix_positions, the step that makes node lookup by (line, column) exact when several specs and
   occurrences share a line.  `recorded_of offs [] layout` is the ground truth of what the replacement passes record:
   for the final layout of a line (final column, spec number in application order), an occurrence of spec k is recorded
   at its column in the text right after spec k was applied, i.e. with the later-applied specs' tokens to its left still
   unreplaced.  C14_text_*: what the replacement pass does to the text that is NOT an occurrence.  Where occurrences are found and
   the parser's column conventions are decided by correspondence and oracle. *)
From Coq Require Import List ZArith NArith Bool.
Import ListNotations.
From PyccoloV Require Import model.Augment proofs.AugmentProofs.

(* the text: replace_tokens copies what stands between tokens and inside strings, f-string literal parts and comments from the
   source.  Replacing a token by itself gives the source back for EVERY token sequence - nothing is lost, duplicated or re-spaced,
   occurrences or not; and a source in which no code token starts an occurrence comes back unchanged for any replacement, with
   nothing recorded (a text rebuilt from token strings and blanks damages tabs, form feeds, backslash continuations and `{{` in
   f-strings even in files that use no token at all: repaired by 4b37ead). *)
Theorem C14_text_self_identity : forall tok toks, fst (replace_tokens tok tok toks) = source_of toks.
Proof. exact replace_self_identity. Qed.
Print Assumptions C14_text_self_identity.
Theorem C14_text_no_occurrence : forall tok repl toks,
  (forall t, In t toks -> t_opaque t = true \/ t_text t = [] \/ prefix_of (t_text t) tok = false) ->
  replace_tokens tok repl toks = (source_of toks, []).
Proof. exact replace_no_occurrence. Qed.
Print Assumptions C14_text_no_occurrence.
(* `x\t=  a?.b # a?.b`: the tab, the two blanks and the comment survive; one occurrence at column 6 of the new text *)
Example C14_text_nonvacuous :
  let tk g x o c := {| t_gap := g; t_text := x; t_opaque := o; t_row := 1; t_col := c |} in
  replace_tokens [63; 46]%N [46]%N
    [tk [] [120]%N false 0%Z; tk [9]%N [61]%N false 2%Z; tk [32; 32]%N [97]%N false 5%Z; tk [] [63]%N false 6%Z; tk [] [46]%N false 7%Z;
     tk [] [98]%N false 8%Z; tk [32]%N [35; 32; 97; 63; 46; 98]%N true 10%Z]
  = ([120; 9; 61; 32; 32; 97; 46; 98; 32; 35; 32; 97; 63; 46; 98]%N, [(1, 6)]%Z).
Proof. vm_compute. reflexivity. Qed.

(* for every number of specs with arbitrary length changes (shrinking or growing), every application order and every
   multiset of occurrences on a line: when sorting the recorded columns keeps the true left-to-right order, every
   corrected column is the occurrence's column in the fully transformed line *)
Theorem C14_cols_partial : forall offs layout,
  sort_occs (recorded_of offs [] layout) = Some (recorded_of offs [] layout) ->
  fix_line offs (recorded_of offs [] layout) = Some layout.
Proof. exact fix_line_correct. Qed.
Print Assumptions C14_cols_partial.

(* what is missing for the full statement: the side condition fails when a later-applied length-changing spec sits to the
   left of an occurrence within its shift distance: the occurrence gets a wrong column (its node is not marked) ... *)
Theorem C14_cols_refuted :
  exists offs layout,
    In (5, 0%nat)%Z layout /\
    match fix_line offs (recorded_of offs [] layout) with Some l => ~ In (5, 0%nat)%Z l | None => False end.
Proof. exact fix_line_refuted. Qed.
Print Assumptions C14_cols_refuted.
(* ... or two different specs are recorded at the same column and the sort compares the specs themselves (TypeError) *)
Theorem C14_cols_tie_refuted : exists offs layout, fix_line offs (recorded_of offs [] layout) = None.
Proof. exact fix_line_tie_refuted. Qed.
Print Assumptions C14_cols_tie_refuted.

(* non-vacuity: three specs (shrinking by 1, 2 and 1), five occurrences on a line, recorded order = true order *)
Example C14_nonvacuous :
  let offs := fun k => match k with 1%nat => 2%Z | _ => 1%Z end in
  let layout := [(4, 2%nat); (9, 0%nat); (14, 1%nat); (20, 0%nat); (26, 2%nat)]%Z in
  sort_occs (recorded_of offs [] layout) = Some (recorded_of offs [] layout) /\
  recorded_of offs [] layout = [(4, 2%nat); (10, 0%nat); (15, 1%nat); (23, 0%nat); (26, 2%nat)]%Z.
Proof. vm_compute. split; reflexivity. Qed.
