(* C13 - cached bytecode never crosses between plain and instrumented imports.
   model/Import.v (part 2): the cache of one module over a history of processes - cache file naming by the configuration
   signature (class names + digest of subscribed events and guard setting; the ordinary name for stock compiles),
   importlib's validate-or-recompile-and-write algorithm, and exec_module's pickled node table (read only for code that came
   from the cache, written whenever the module was compiled in the process, cached code without table not used).
   ./check C13 runs enumerated histories of real processes (plain / tracer configurations, writable / read-only / no-write,
   source edits) over one package directory and compares each process with the same process on a fresh directory (the
   property) and with run / the cache file set predicted by the model in coqc (the tie). *)
From Coq Require Import List NArith Bool.
Import ListNotations.
From PyccoloV Require Import model.Import proofs.ImportProofs.

(* every process of every history - any sequence of plain and traced imports under any configurations, with caching allowed
   or not, the cache writable or not, the source edited between any two processes - observes exactly what it would observe
   on an empty cache (its own configuration's code, compiled from the current source, with the node table of that very
   compilation), PROVIDED the configurations of the history that share a cache name are the same configuration *)
Theorem C13_fresh_partial : forall ps, faithful (map p_who ps) -> run fs0 ps = map fresh_obs ps.
Proof. exact history_fresh. Qed.
Print Assumptions C13_fresh_partial.
(* ... from any cache state reachable that way *)
Theorem C13_fresh_from : forall ws, faithful ws -> forall ps s, Forall (fun p => In (p_who p) ws) ps -> Inv ws s ->
  run s ps = map fresh_obs ps.
Proof. exact run_fresh. Qed.
Print Assumptions C13_fresh_from.
(* the ordinary cache name is used by stock compiles only: plain and instrumented code never share an entry *)
Theorem C13_plain_name : forall w, name_of w = [] -> w = [].
Proof. exact plain_name_only_stock. Qed.
Print Assumptions C13_plain_name.
(* without the proviso the statement is false: what the signature does not cover (static node conditions, node-table
   setting of a like-named class with the same events) crosses (recorded finding) *)
Theorem C13_fresh_refuted : exists ps, run fs0 ps <> map fresh_obs ps.
Proof. exact fresh_refuted. Qed.
Print Assumptions C13_fresh_refuted.

(* non-vacuity: plain, tracer A (keeps a node table), plain, source edit + A without write permission, A again, B, A once more *)
Local Open Scope N_scope.
Definition A : who := [(1, 11, (0, true))].
Definition B : who := [(2, 22, (0, false))].
Definition P (w : who) (wr ed : bool) : proc := {| p_who := w; p_caching := true; p_write := wr; p_edit := ed; p_raises := false |}.
Definition ex_hist : list proc := [P [] true false; P A true false; P [] true false; P A false true; P A true false; P B true false; P A true false].
Example C13_nonvacuous : faithful (map p_who ex_hist) /\ run fs0 ex_hist = map fresh_obs ex_hist /\ length ex_hist = 7%nat.
Proof.
  split; [|split; [vm_compute; reflexivity|reflexivity]].
  (* the history has three configurations, under three names *)
  assert (H : forall w, In w (map p_who ex_hist) -> In w [[]; A; B]) by (cbn; tauto).
  intros w1 w2 H1 H2. apply H in H1, H2.
  destruct H1 as [<-|[<-|[<-|[]]]]; destruct H2 as [<-|[<-|[<-|[]]]]; try reflexivity; discriminate.
Qed.
