(* C20 - trace stacks restore every registered field in strict LIFO order.
   Model: model/Stack.v (transcription of pyccolo/trace_stack.py over pure values), tied to the code by the
   K-stack correspondence run by ./check C20.
   Vocabulary: ds = the registrations of all stacks of a tracer; wf ds = field names of one stack are pairwise
   distinct and a stack is not registered with itself (decidable: wf_b; holds of every declaration whose
   attribute names are distinct, checked on every generated declaration);
   wn B = B is a well-nested block of operations (mutations, reads, and matched push..pop pairs of any stacks);
   all_ok = no operation raised. *)
From Coq Require Import List ZArith NArith Bool.
Import ListNotations.
From PyccoloV Require Import model.Stack proofs.StackProofs.

(* LIFO discipline: a well-nested block leaves the saved frames of EVERY stack attribute as they were
   (nested stacks included: an outer push installs a fresh clone, the matching pop puts the original back). *)
Theorem C20_frames_preserved : forall ds, wf ds -> forall B, wn B -> forall m m' rs,
  run ds m B = (m', rs) -> all_ok rs = true -> forall s, frames_of m' s = frames_of m s.
Proof. exact frames_preserved. Qed.
Print Assumptions C20_frames_preserved.

(* push saves the current values of all registered fields and resets: auto-initialised fields get their declared
   initial value (run_init: the declared scalar, a new container with the declared contents, a new empty nested stack), manually
   initialised ones are removed, nothing else changes. *)
Theorem C20_push_resets : forall ds, wf ds -> forall s m m' r, step ds m (OPush s) = (m', r) -> is_err r = false ->
  exists d fr t, decl_of ds s = Some d /\ frames_of m s = Some fr /\ get_all m (names d) = Some t /\
    frames_of m' s = Some (fr ++ [t]) /\
    (forall f i, In (f, i) (auto d) -> dget m' f = Some (run_init i)) /\
    (forall f, In f (manual d) -> dget m' f = None) /\
    (forall g, g <> s -> ~ In g (names d) -> dget m' g = dget m g).
Proof. exact push_resets. Qed.
Print Assumptions C20_push_resets.

(* each pop restores exactly the values saved by the matching push, whatever well-nested activity lies between *)
Theorem C20_push_pop_restores : forall ds, wf ds -> forall s B, wn B -> forall m m' rs,
  run ds m (OPush s :: B ++ [OPop s]) = (m', rs) -> all_ok rs = true ->
  exists d, decl_of ds s = Some d /\
    (forall f, In f (names d) -> dget m' f = dget m f) /\ frames_of m' s = frames_of m s.
Proof. exact push_pop_restores. Qed.
Print Assumptions C20_push_pop_restores.

(* fields can be read at any depth: depth 1 is the value before the latest unmatched push ... *)
Theorem C20_read_depth_1 : forall ds, wf ds -> forall s B, wn B -> forall m m1 rs g,
  run ds m (OPush s :: B) = (m1, rs) -> all_ok rs = true ->
  forall d, decl_of ds s = Some d -> In g (names d) ->
  exists v, dget m g = Some v /\ step ds m1 (ORead s g (-1)) = (m1, OutVal v).
Proof. exact read_depth_1. Qed.
Print Assumptions C20_read_depth_1.

(* ... and depth k+1 after a push is depth k before it (so by induction every depth is characterised) *)
Theorem C20_read_deeper : forall ds, wf ds -> forall s B, wn B -> forall m m1 rs g k,
  run ds m (OPush s :: B) = (m1, rs) -> all_ok rs = true -> (1 <= k)%nat ->
  snd (step ds m1 (ORead s g (- Z.of_nat (S k)))) = snd (step ds m (ORead s g (- Z.of_nat k))).
Proof. exact read_deeper. Qed.
Print Assumptions C20_read_deeper.

(* clearing returns the tracer to the values it had before the first push *)
Theorem C20_clear_restores : forall ds, wf ds -> forall s P, pushes s P -> forall m m' rs,
  run ds m P = (m', rs) -> all_ok rs = true -> frames_of m s = Some [] ->
  exists d m'', decl_of ds s = Some d /\ step ds m' (OClear s) = (m'', Done) /\
    frames_of m'' s = Some [] /\ (forall f, In f (names d) -> dget m'' f = dget m f).
Proof. exact clear_restores. Qed.
Print Assumptions C20_clear_restores.

(* registration: exactly the attributes assigned inside a register_stack_state block are saved and restored *)
Theorem C20_registers_every_field : forall items f,
  In f (names (block_decl items)) <-> In f (map fst (flat_map collect items)).
Proof. exact registers_every_field. Qed.
Print Assumptions C20_registers_every_field.

(* ---- non-vacuity: a nested declaration (plain value, container, manual field, nested stack) is well formed,
   and a well-nested run with an inner push/pop inside an outer one succeeds and restores. *)
Local Open Scope N_scope.
Definition ex_tops : list item :=
  [DStack 1 [DField 2 (VInt 0) None; DField 3 (VCont 0 []) None; DField 6 (VStr 1) (Some 1);
             DStack 4 [DField 5 (VInt 7) None]]].
Definition ex_block : list op :=
  [OSet 2 (VInt 5); OAppend 3 11%Z; OSet 6 (VStr 2); OPushCheck 1; OPush 4; OSet 5 (VInt 9); OPop 4; ORead 1 2 (-1)%Z].
Example C20_nonvacuous :
  wf (init_decls ex_tops) /\ wn ex_block /\
  all_ok (snd (run (init_decls ex_tops) (init_mgr ex_tops) (OPush 1 :: ex_block ++ [OPop 1]))) = true /\
  dget (fst (run (init_decls ex_tops) (init_mgr ex_tops) (OPush 1 :: ex_block))) 3 = Some (VCont 0 [11%Z]).
Proof.
  split; [apply wf_b_sound; vm_compute; reflexivity|].
  split; [|split; vm_compute; reflexivity].
  unfold ex_block. repeat (apply wn_mut; [reflexivity|]).
  apply (wn_pair 4 [OSet 5 (VInt 9)] [ORead 1 2 (-1)%Z]); repeat (apply wn_mut; [reflexivity|]); constructor.
Qed.

(* ... with a container that holds mutable containers (`{"load": [], "store": []}`, `[["root"]]`): the copy a push hands out is DEEP - an
   in-place change of an inner list at one level (OAppendIn) shows neither in the value later pushes reset the field to nor in the saved frames *)
Definition ex_nest : list item := [DStack 1 [DField 2 (VNest 0 [[1%Z]; []]) None]].
Definition ex_nest_block : list op := [OAppendIn 2 0 9%Z; OPush 1; OAppendIn 2 1 5%Z; ORead 1 2 (-1)%Z; OPop 1; ORead 1 2 (-1)%Z].
Example C20_nested_nonvacuous :
  wf (init_decls ex_nest) /\ wn ex_nest_block /\
  snd (run (init_decls ex_nest) (init_mgr ex_nest) (OPush 1 :: ex_nest_block ++ [OPop 1])) =
    [Done; Done; Done; Done; OutVal (VNest 0 [[1%Z; 9%Z]; []]); Done; OutVal (VNest 0 [[1%Z]; []]); Done] /\
  dget (fst (run (init_decls ex_nest) (init_mgr ex_nest) (OPush 1 :: ex_nest_block))) 2 = Some (VNest 0 [[1%Z; 9%Z]; []]) /\
  dget (fst (run (init_decls ex_nest) (init_mgr ex_nest) [OPush 1; OAppendIn 2 0 9%Z; OPush 1])) 2 = Some (VNest 0 [[1%Z]; []]).
Proof.
  split; [apply wf_b_sound; vm_compute; reflexivity|].
  split; [|repeat split; vm_compute; reflexivity].
  unfold ex_nest_block. apply wn_mut; [reflexivity|].
  apply (wn_pair 1 [OAppendIn 2 1 5%Z; ORead 1 2 (-1)%Z] [ORead 1 2 (-1)%Z]); repeat (apply wn_mut; [reflexivity|]); constructor.
Qed.
