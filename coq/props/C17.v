(* C17 - other threads never cost the main thread an event.
   Model: model/Threads.v: every emission is the sequence of statement-level steps of _emit_event/_emit_tracer_loop on
   the two re-entrancy switches; a schedule is any list of thread indices (thread 0 = main thread).
   gen/Switches.v is REGENERATED from emit_event.py on every run and says whether the switches are process-wide
   globals (true) or per-thread (false); the theorems below are stated for the switches the code has, so they
   only check while the code keeps them per-thread.  The step granularity (GIL: one statement at a time) and the
   step bodies are tied to the code by the K-thr scheduler of ./check C17. *)
From Coq Require Import List NArith Bool Arith.
Import ListNotations.
From PyccoloV Require Import gen.Switches model.Threads proofs.ThreadsProofs.
From PyccoloV Require model.Thunk proofs.ThunkProofs.

(* for every number of threads and emissions, every tracer configuration and EVERY schedule: what the main thread
   observes (its deliveries in order, its switches, its own progress) is what it observes under the schedule with all
   steps of other threads removed - during and after the concurrent activity *)
Theorem C17_main : forall ts sched s s', wf s -> wf s' ->
  main_view switches_shared s = main_view switches_shared s' ->
  main_view switches_shared (run_sched switches_shared ts s sched) =
  main_view switches_shared (run_sched switches_shared ts s' (filter (fun t => t =? 0) sched)).
Proof. exact main_independent. Qed.
Print Assumptions C17_main.

(* instrumented code in other threads is delivered only to tracers that opted into multiple threads *)
Theorem C17_workers : forall ts sched s, Forall (worker_ok ts) (dlog s) ->
  Forall (worker_ok ts) (dlog (run_sched switches_shared ts s sched)).
Proof. exact (workers_only_multi switches_shared). Qed.
Print Assumptions C17_workers.

(* the defect of the tree before the repair 17b3fba (one process-wide pair of switches), kept as a checked witness: a schedule
   of 27 steps of two threads loses the main thread's events and leaves delivery off for good *)
Theorem C17_shared_switches_refuted :
  let ts := [{| multi_thread := false; allow_re := false; h_re := false |}] in
  let s0 := init [2; 1] in
  fst (fst (main_view true (run_sched true ts s0 w_sched))) = [] /\
  fst (fst (main_view true (run_sched true ts s0 (filter (fun t => t =? 0) w_sched)))) = [(0, 0); (0, 0)] /\
  sA (snd (fst (main_view true (run_sched true ts s0 w_sched)))) = false.
Proof. exact shared_switches_refuted. Qed.
Print Assumptions C17_shared_switches_refuted.

(* replaced statements (before_stmt handlers returning a replacement): the rewritten statement is
       if <emit before_stmt>: <exec saved thunk>() else: <original statement>
   and other threads may emit between the two halves.  model/Thunk.v: one step = one half; gen/Switches.v says, from
   tracer.py and emit_event.py as they are, whether the slot is per thread and on which tracers the emission stores.
   For every assignment of multi-thread flags, every top tracer, all programs of all threads and EVERY schedule: what a
   thread has done so far, followed by what its remaining statements do when it runs alone, is what it does alone, and
   no thread has failed. *)
Theorem C17_replaced_statements : forall multi top progs sched u,
  let th := Thunk.threads (Thunk.run thunk_shared thunk_store_all multi top sched (Thunk.init progs)) u in
  Thunk.outs th ++ map Thunk.spec_out (Thunk.todo th) = map Thunk.spec_out (progs u) /\ Thunk.dead th = false.
Proof. exact ThunkProofs.local_threads_undisturbed. Qed.
Print Assumptions C17_replaced_statements.

(* the two defects of the tree before the repairs d5a9a91 and 1a488fd, kept as checked witnesses: a process-wide slot (the main
   thread fails), and a per-thread slot stored only on tracers that may see the thread (a worker statement replaced below a
   main-only top tracer fails) *)
Theorem C17_shared_slot_refuted :
  Thunk.outs (Thunk.threads (Thunk.run true false (fun _ => true) 0 [0; 1; 0]%nat (Thunk.init (fun t => if t =? 0 then [Some 7%N] else [None]))) 0) = [Thunk.Fail] /\
  Thunk.outs (Thunk.threads (Thunk.run false false (fun k => k =? 0) 1 [1; 1]%nat (Thunk.init (fun t => if t =? 1 then [Some 7%N] else []))) 1) = [Thunk.Fail].
Proof. exact (conj ThunkProofs.shared_refuted ThunkProofs.visible_only_refuted). Qed.
Print Assumptions C17_shared_slot_refuted.

(* non-vacuity: the initial state of 3 threads is well formed; under the same interleaving that breaks shared
   switches, per-thread switches give the main thread both of its events *)
Example C17_nonvacuous :
  wf (init [2; 1; 3]) /\
  fst (fst (main_view false (run_sched false [{| multi_thread := false; allow_re := false; h_re := false |}] (init [2; 1]) w_sched)))
    = [(0, 0); (0, 0)].
Proof. split; [reflexivity|vm_compute; reflexivity]. Qed.
Example C17_replaced_nonvacuous :
  Thunk.outs (Thunk.threads (Thunk.run thunk_shared thunk_store_all (fun _ => true) 0 [0; 1; 0; 1]%nat (Thunk.init (fun t => if t =? 0 then [Some 7%N] else [None; Some 3%N]))) 0) = [Thunk.Ran 7%N].
Proof. vm_compute. reflexivity. Qed.
