(* C08 - deferred before-expression events preserve semantics and honour overrides.
   (1) semantics preservation: the same certificate check as C01 (the thunk shapes EMIT(evt, id, ret=TLAM(lambda: e))(),
       the two-argument binop / n-argument compare thunks) - C08_erase_sound is the soundness theorem it rests on;
       ./check C08 evaluates it on programs instrumented with subsets of the fifteen deferred events.
   (2) overrides: what the rewritten program calls is `make_ret event ret` - REGENERATED from emit_event.py::_make_ret on
       every run; C08_make_ret states the contract: a callable result is used as the computation, anything else is
       wrapped into a constant computation; non-deferred events are handed back unchanged. *)
From Coq Require Import List ZArith NArith Bool.
Import ListNotations.
From PyccoloV Require model.RwFrag model.FragSem proofs.FragSemProofs model.FragOv proofs.FragOvProofs.
From PyccoloV Require Import gen.Events gen.EmitRet gen.PyAst model.Val model.Tree model.Erase proofs.EraseSound.

Theorem C08_make_ret : forall ev v,
  (is_before_expr_event ev = true -> rv_callable v = true -> make_ret ev v = v) /\
  (is_before_expr_event ev = true -> rv_callable v = false -> make_ret ev v = RConstThunk v) /\
  (is_before_expr_event ev = false -> make_ret ev v = v).
Proof.
  intros ev v. unfold make_ret. repeat split; intros H; try intros H2; rewrite H; try rewrite H2; reflexivity.
Qed.
Print Assumptions C08_make_ret.

Theorem C08_erase_sound :
  forall (D : Type) (dnone : D) (sem : N -> list scalar -> list (list D) -> D) (eqvl : list D -> list D -> Prop),
  (forall l, eqvl l l) ->
  (forall a b c, eqvl a b -> eqvl b c -> eqvl a c) ->
  (forall a a' b b', eqvl a a' -> eqvl b b' -> eqvl (a ++ b) (a' ++ b')) ->
  (forall k sc fs fs', Forall2 eqvl fs fs' -> eqvl [sem k sc fs] [sem k sc fs']) ->
  (forall sc fs l, post kCall sc fs = Some l -> eqvl [den D dnone sem (T kCall sc fs)] (map (den D dnone sem) l)) ->
  (forall sc fs l, post kIfExp sc fs = Some l -> eqvl [den D dnone sem (T kIfExp sc fs)] (map (den D dnone sem) l)) ->
  (forall sc fs l, post kIf sc fs = Some l -> eqvl [den D dnone sem (T kIf sc fs)] (map (den D dnone sem) l)) ->
  (forall sc fs l, post kTry sc fs = Some l -> eqvl [den D dnone sem (T kTry sc fs)] (map (den D dnone sem) l)) ->
  (forall sc fs l, post kExpr sc fs = Some l -> eqvl [den D dnone sem (T kExpr sc fs)] (map (den D dnone sem) l)) ->
  (forall sc fs l, post kSubscript sc fs = Some l -> eqvl [den D dnone sem (T kSubscript sc fs)] (map (den D dnone sem) l)) ->
  (forall t, eqvl [den D dnone sem (norm t)] [den D dnone sem t]) ->
  forall src out, check_erase src out = true -> eqvl [den D dnone sem out] [den D dnone sem src].
Proof. exact check_erase_sound. Qed.
Print Assumptions C08_erase_sound.

(* non-vacuity: the deferred binop shape  EMIT(<event>, id, ret=TLAM(lambda x, y: x + y))(1, 2)  erases to 1 + 2 *)
Local Open Scope N_scope.
Definition c1 (z : Z) : tree := T kConstant [SInt z; SNone] [].
Definition nm (x : N) : tree := T kName [SId x] [[T kLoad [] []]].
Definition ex_binop_out : tree :=
  T kCall [] [[T kCall [] [[nm 1]; [T kConstant [SStr 1085; SNone] []; T kConstant [SNid 2; SNone] []];
     [T kkeyword [SId 6] [[T kCall [] [[nm 2]; [T kLambda [] [[T karguments [] [[]; [T karg [SId 8; SNone] [[]]; T karg [SId 9; SNone] [[]]]; []; []; []; []; []]];
                                                              [T kBinOp [] [[nm 8]; [T kAdd [] []]; [nm 9]]]]]; []]]];
      T kkeyword [SId 7] [[T kConstant [SNone; SNone] []]]]]]; [c1 1; c1 2]; []].
Example C08_nonvacuous :
  erase ex_binop_out = Some [T kBinOp [] [[c1 1]; [T kAdd [] []]; [c1 2]]] /\
  make_ret E_before_binop (RUser 41 false) = RConstThunk (RUser 41 false) /\ make_ret E_before_binop (RUser 9 true) = RUser 9 true.
Proof. vm_compute. repeat split; reflexivity. Qed.

(* OVERRIDES AS A THEOREM on the fragment (model/FragOv.v: the terms and the rewriter of FragSem.v, handlers that hand back values).
     hv e n x : what the handler of the value event e does with the value x it is given at node n (None: nothing; Some y: y is used instead;
                pyc.Null is Some VNone);
     hd e n   : what the handler of the deferred event e (before_binop, before_compare, before_assign_rhs) hands back (None: nothing;
                Some v: the computation is replaced by the constant v).
   The reference `ref_omodule` is the source semantics in which the handlers of the SUBSCRIBED events act as the event table says: a value
   event's handler replaces the value every later computation sees; an overridden before_binop / before_compare still evaluates the operands
   that are arguments of the deferred call (both operands; the left operand and the first comparator) and nothing that sits inside the thunk
   (the later comparators); an overridden before_assign_rhs evaluates nothing of the right-hand side.
   For ALL primitive operations, handler tables, subscriptions, source modules and environments the instrumented module ends with the
   exception and the bindings of that reference and delivers its stream.  K-ov ties evaluator and reference to real runs whose handlers
   override by table. *)
Theorem C08_frag_overrides : forall binop cmpop unop truth cval is_and hv hd (c : RwFrag.rcfg) body r sv,
  forallb FragSemProofs.src_s body = true ->
  FragSem.s_exc (FragOv.exec_ol binop cmpop unop truth cval is_and hv hd (FragSem.instr_module c body) r sv) =
    FragSem.r_exc (FragOv.ref_omodule binop cmpop unop truth cval is_and hv hd c body r) /\
  FragSem.s_env (FragOv.exec_ol binop cmpop unop truth cval is_and hv hd (FragSem.instr_module c body) r sv) =
    FragSem.r_env (FragOv.ref_omodule binop cmpop unop truth cval is_and hv hd c body r) /\
  FragSem.filter_log c (FragSem.s_log (FragOv.exec_ol binop cmpop unop truth cval is_and hv hd (FragSem.instr_module c body) r sv)) =
    FragSem.filter_log c (FragSem.r_log (FragOv.ref_omodule binop cmpop unop truth cval is_and hv hd c body r)).
Proof. exact FragOvProofs.ov_module. Qed.
Print Assumptions C08_frag_overrides.

(* non-vacuity: `a = 2 + 3` with before_binop, after_int and after_assign_rhs subscribed; the before_binop handler hands back 42: both
   operands are still evaluated (after_int sees 2 and 3), a = 42, and after_assign_rhs sees 42 *)
Example C08_frag_overrides_nonvacuous :
  let body := [FragSem.SAssign 1 [100] (FragSem.XBin 4 (FragSem.XConst 5 (SInt 2%Z)) kAdd (FragSem.XConst 7 (SInt 3%Z)))] in
  let c := {| RwFrag.sub := fun e => existsb (event_eqb e) [E_before_binop; E_after_int; E_after_assign_rhs] |} in
  let hd := fun e (n : N) => if event_eqb e E_before_binop then Some (FragSem.VInt 42) else None in
  let a := FragOv.exec_ol FragSem.Py.binop FragSem.Py.cmpop FragSem.Py.unop FragSem.Py.truth FragSem.Py.cval FragSem.Py.is_and (fun _ _ _ => None) hd
             (FragSem.instr_module c body) (fun _ => None) FragSem.VNone in
  forallb FragSemProofs.src_s body = true /\ FragSem.s_env a 100 = Some (FragSem.VInt 42) /\
  FragSem.s_log a = [(E_before_binop, 4, None); (E_after_int, 5, Some (FragSem.VInt 2)); (E_after_int, 7, Some (FragSem.VInt 3)); (E_after_assign_rhs, 4, Some (FragSem.VInt 42))].
Proof. vm_compute. repeat split; reflexivity. Qed.
