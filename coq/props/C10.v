(* C10 - activating a guard silences a body without changing results.
   Every guarded construct is rewritten to  `if TRACING_ENABLED and <guard> [and ...]: <instrumented> else: <pristine copy>`
   (statement form for loop and function bodies, conditional-expression form for while tests, lambda bodies and
   comprehension parts).  Whatever the guard flags are at run time, one of the two branches runs.  The erasure only
   accepts such a node when the pristine branch, after the deliberate source changes, is IDENTICAL to the erasure of
   the instrumented branch, or when there is no other branch and nothing but `pass` is guarded (C10_guard_branches_agree);
   C10_erase_sound (the C01 theorem) then gives, for every semantics satisfying the laws, that the rewritten program is
   equivalent to the source - independently of the flag values, since the guard law `if g: A else: B ~ A when A ~ B` holds
   for every value of g.
   ./check C10 evaluates the certificate on programs rewritten with guards enabled and runs them under random
   activation / deactivation schedules driven from the bracket-event handlers. *)
From Coq Require Import List ZArith NArith Bool.
Import ListNotations.
From PyccoloV Require gen.Events model.RwFrag model.FragSem proofs.FragSemProofs model.FragLoop proofs.FragLoopProofs model.FragFun proofs.FragFunProofs model.FragProg proofs.FragProgProofs.
From PyccoloV Require proofs.DocProofs.
From PyccoloV Require Import gen.PyAst model.Tree model.Erase proofs.EraseSound.

Theorem C10_guard_branches_agree : forall sc test b o l,
  is_guard_test test = true ->
  (post kIf sc [[test]; b; o] = Some l ->
     l = b /\ (trees_eqb b (map norm o) = true
              \/ (o = [] /\ forallb (tree_eqb (T kPass [] [])) b = true))) /\     (* or: nothing but `pass` is guarded and there is no
                                                                                  other branch (a loop body of hoisted declarations only) *)
  (forall b1 o1, post kIfExp sc [[test]; [b1]; [o1]] = Some l -> l = [b1] /\ tree_eqb b1 (norm o1) = true).
Proof.
  intros sc test b o l Hg. split.
  - lazy beta iota zeta delta [post kIf kCall kIfExp N.eqb Pos.eqb]. rewrite Hg. destruct (trees_eqb b (map norm o)) eqn:E; intros H; [inversion H; auto|].
    destruct o as [|o0 o']; [|discriminate]. destruct (forallb (tree_eqb (T kPass [] [])) b) eqn:Ep; [|discriminate].
    inversion H; auto.
  - intros b1 o1. lazy beta iota zeta delta [post kCall kIfExp N.eqb Pos.eqb]. rewrite Hg. destruct (tree_eqb b1 (norm o1)) eqn:E; intros H; inversion H; auto.
Qed.
Print Assumptions C10_guard_branches_agree.

Theorem C10_erase_sound :
  forall (D : Type) (dnone : D) (sem : N -> list scalar -> list (list D) -> D) (eqvl : list D -> list D -> Prop),
  (forall l, eqvl l l) ->
  (forall a b c, eqvl a b -> eqvl b c -> eqvl a c) ->
  (forall a a' b b', eqvl a a' -> eqvl b b' -> eqvl (a ++ b) (a' ++ b')) ->
  (forall k sc fs fs', Forall2 eqvl fs fs' -> eqvl [sem k sc fs] [sem k sc fs']) ->
  (forall sc fs l, post kCall sc fs = Some l -> eqvl [den D dnone sem (T kCall sc fs)] (map (den D dnone sem) l)) ->
  (forall sc fs l, post kIfExp sc fs = Some l -> eqvl [den D dnone sem (T kIfExp sc fs)] (map (den D dnone sem) l)) ->
  (forall sc fs l, post kIf sc fs = Some l -> eqvl [den D dnone sem (T kIf sc fs)] (map (den D dnone sem) l)) ->
  (forall sc fs l, post kTry sc fs = Some l -> eqvl [den D dnone sem (T kTry sc fs)] (map (den D dnone sem) l)) ->
  (forall sc fs l, post kExpr sc fs = Some l -> eqvl [den D dnone sem (T kExpr sc fs)] (map (den D dnone sem) l)) ->
  (forall sc fs l, post kSubscript sc fs = Some l -> eqvl [den D dnone sem (T kSubscript sc fs)] (map (den D dnone sem) l)) ->
  (forall t, eqvl [den D dnone sem (norm t)] [den D dnone sem t]) ->
  forall src out, check_erase src out = true -> eqvl [den D dnone sem out] [den D dnone sem src].
Proof. exact check_erase_sound. Qed.
Print Assumptions C10_erase_sound.

(* non-vacuity: a guard conditional with differing branches is rejected, with equal branches it collapses *)
Local Open Scope N_scope.
Definition gtest : tree := T kBoolOp [] [[T kAnd [] []]; [T kName [SId 4] [[T kLoad [] []]]; T kName [SId 5000] [[T kLoad [] []]]]].
Definition c1 (z : Z) : tree := T kConstant [SInt z; SNone] [].
Example C10_nonvacuous :
  is_guard_test gtest = true /\ post kIfExp [] [[gtest]; [c1 1]; [c1 1]] = Some [c1 1] /\ post kIfExp [] [[gtest]; [c1 1]; [c1 2]] = None.
Proof. vm_compute. repeat split; reflexivity. Qed.

(* DOCSTRING POSITIONS (model/Erase.v check_docs, proofs/DocProofs.v).  `EMIT(.., ret="s")` has the value of "s", and the erasure treats it
   so; but a string is the docstring of a function / class / module only when it stands, as written, as the first statement of the body -
   a fact about syntax that no law of C10_erase_sound sees.  `check_docs out` is evaluated on every rewriter output together with check_erase;
   for EVERY tree it accepts and every function / class / module body ANYWHERE in it (guard-exempt and pristine copies included): if the erased
   body (which check_erase compares with the source) begins with a docstring, then the body as written begins with that very statement;
   and a docstring written at the head of a body is the head of the erased body.  So source and output have their docstrings in the same places. *)
Theorem C10_docstrings_kept : forall out k sc fs body d' rest,
  check_docs out = true -> DocProofs.subtree (T k sc fs) out -> scope_body k fs = Some body ->
  erase_stmts body = Some (d' :: rest) -> is_docstring_strict d' = true ->
  exists body', body = d' :: body'.
Proof. exact DocProofs.check_docs_everywhere. Qed.
Print Assumptions C10_docstrings_kept.
Theorem C10_docstrings_erased : forall d body l,
  is_docstring_strict d = true -> erase_stmts (d :: body) = Some l -> exists rest, l = d :: rest.
Proof. exact DocProofs.doc_head_erased. Qed.
Print Assumptions C10_docstrings_erased.

(* non-vacuity: `def f(): "doc"; pass` whose string has been wrapped passes check_erase (the value is the same) and fails check_docs;
   left as written it passes both *)
Definition doc_fun (d : tree) : tree :=
  T kModule [] [[T kFunctionDef [SId 100%N; SNone] [[T karguments [] [[]; []; []; []; []; []; []]]; [d; T kPass [] []]; []; []; []]]; []].
Definition doc_stmt : tree := T kExpr [] [[T kConstant [SStr 500%N; SNone] []]].
Definition doc_wrapped : tree :=
  T kExpr [] [[T kCall [] [[T kName [SId 1%N] [[T kLoad [] []]]]; [T kConstant [SStr 1090%N; SNone] []; T kConstant [SNid 3%N; SNone] []];
                          [T kkeyword [SId 6%N] [[T kConstant [SStr 500%N; SNone] []]]]]]].
Example C10_docstrings_nonvacuous :
  check_erase (doc_fun doc_stmt) (doc_fun doc_wrapped) = true /\ check_docs (doc_fun doc_wrapped) = false /\
  check_erase (doc_fun doc_stmt) (doc_fun doc_stmt) = true /\ check_docs (doc_fun doc_stmt) = true.
Proof. vm_compute. repeat split; reflexivity. Qed.

(* GUARDS AS A THEOREM on a fragment with `while` loops (model/FragLoop.v: FragSem.v + while loops with else clauses, the two guards the
   rewriter gives each loop, the pristine copy of a loop body, try / finally around an iteration, global guards enabled or not).
   Handlers may activate and deactivate guards in any way: `pol` is an ARBITRARY function from the stream delivered so far to the set of
   guards that are on.  Loops run on fuel (iterations per execution of a loop), the same for source and instrumented program.
   For ALL primitive operations, subscriptions, guard settings, policies, source modules, environments and fuel:

   C10_frag_results - two runs of the instrumented program, under any two subscriptions, guard settings and guard schedules, end with
                      the same exception (or none, or out of fuel) and the same bindings;
   C10_frag_plain   - namely those of the program as it is;
   C10_frag_stream  - the subscribed events arrive exactly as the gated reference `lref_module` writes them out: an iteration that starts
                      while the loop's body guard is off contributes nothing (nor does a test evaluated while the test guard is off),
                      an iteration that starts while it is on delivers its events also when the guard is switched off half-way and is
                      closed by after_while_loop_iter also when it raises; after a deactivation delivery resumes.
   K-loop ties model, evaluator and reference to the real rewriter, CPython and the real runtime under guard rules. *)
Theorem C10_frag_results : forall binop cmpop unop truth cval is_and fuel c1 ge1 pol1 c2 ge2 pol2 body r sv sv',
  forallb FragLoopProofs.lsrc_s body = true ->
  FragLoop.l_exc (FragLoop.lexec_l binop cmpop unop truth cval is_and c1 pol1 fuel (FragLoop.linstr_module c1 ge1 body) r sv []) =
  FragLoop.l_exc (FragLoop.lexec_l binop cmpop unop truth cval is_and c2 pol2 fuel (FragLoop.linstr_module c2 ge2 body) r sv' []) /\
  FragLoop.l_env (FragLoop.lexec_l binop cmpop unop truth cval is_and c1 pol1 fuel (FragLoop.linstr_module c1 ge1 body) r sv []) =
  FragLoop.l_env (FragLoop.lexec_l binop cmpop unop truth cval is_and c2 pol2 fuel (FragLoop.linstr_module c2 ge2 body) r sv' []).
Proof. exact FragLoopProofs.loop_results. Qed.
Print Assumptions C10_frag_results.

Theorem C10_frag_plain : forall binop cmpop unop truth cval is_and fuel c ge pol pol0 body r sv sv',
  forallb FragLoopProofs.lsrc_s body = true ->
  FragLoop.l_exc (FragLoop.lexec_l binop cmpop unop truth cval is_and c pol fuel (FragLoop.linstr_module c ge body) r sv []) =
  FragLoop.l_exc (FragLoop.lexec_l binop cmpop unop truth cval is_and FragSemProofs.no_events pol0 fuel body r sv' []) /\
  FragLoop.l_env (FragLoop.lexec_l binop cmpop unop truth cval is_and c pol fuel (FragLoop.linstr_module c ge body) r sv []) =
  FragLoop.l_env (FragLoop.lexec_l binop cmpop unop truth cval is_and FragSemProofs.no_events pol0 fuel body r sv' []).
Proof. exact FragLoopProofs.loop_plain. Qed.
Print Assumptions C10_frag_plain.

Theorem C10_frag_stream : forall binop cmpop unop truth cval is_and fuel c ge pol body r sv,
  forallb FragLoopProofs.lsrc_s body = true ->
  FragSem.filter_log c (FragLoop.l_log (FragLoop.lexec_l binop cmpop unop truth cval is_and c pol fuel (FragLoop.linstr_module c ge body) r sv [])) =
  FragSem.filter_log c (FragLoop.rl_log (FragLoop.lref_module binop cmpop unop truth cval is_and c pol fuel ge body r)).
Proof. exact FragLoopProofs.loop_stream. Qed.
Print Assumptions C10_frag_stream.

(* non-vacuity: `i = 0; while i < 3: i = i + 1` with load_name and after_while_loop_iter subscribed.  With all guards on, 3 iterations deliver
   10 events (7 loads, 3 after_while_loop_iter); with the body guard switched off as soon as the first after_while_loop_iter has been
   delivered, iterations 2 and 3 are silent: the loads of the test still arrive (the test guard is on), the loads of the body and the
   two further after_while_loop_iter do not (6 events); the result i = 3 is the same *)
Definition ex_loop : list FragLoop.lstmt :=
  [FragLoop.LAssign 1 [100] (FragSem.XConst 4 (SInt 0%Z));
   FragLoop.LWhile 5 (FragSem.XCmp 6 (FragSem.XName 7 100) [kLt] [FragSem.XConst 10 (SInt 3%Z)])
     [FragLoop.LAssign 11 [100] (FragSem.XBin 14 (FragSem.XName 15 100) kAdd (FragSem.XConst 18 (SInt 1%Z)))] []]%N.
Definition ex_c : RwFrag.rcfg := {| RwFrag.sub := fun e => existsb (Events.event_eqb e) [Events.E_load_name; Events.E_after_while_loop_iter] |}.
Definition pol_on : list FragSem.entry -> FragLoop.guard -> bool := fun _ _ => true.
Definition pol_off_after_first : list FragSem.entry -> FragLoop.guard -> bool :=
  fun log g => match g with
               | FragLoop.GBody 5 => negb (existsb (fun en => Events.event_eqb (fst (fst en)) Events.E_after_while_loop_iter) log)
               | _ => true
               end.
Example C10_frag_nonvacuous :
  forallb FragLoopProofs.lsrc_s ex_loop = true /\
  let run pol := FragLoop.lexec_l FragSem.Py.binop FragSem.Py.cmpop FragSem.Py.unop FragSem.Py.truth FragSem.Py.cval FragSem.Py.is_and ex_c pol 10
                   (FragLoop.linstr_module ex_c true ex_loop) (fun _ => None) FragSem.VNone [] in
  FragLoop.l_env (run pol_on) 100 = Some (FragSem.VInt 3) /\ FragLoop.l_env (run pol_off_after_first) 100 = Some (FragSem.VInt 3) /\
  length (FragLoop.l_log (run pol_on)) = 10%nat /\ length (FragLoop.l_log (run pol_off_after_first)) = 6%nat.
Proof. vm_compute. repeat split; reflexivity. Qed.

(* FUNCTIONS (model/FragFun.v): module-level definitions, return, calls standing as right-hand sides; recursion on fuel (call depth `d`);
   handlers flip FUNCTION guards by an arbitrary policy `pol` of the stream delivered so far.  For ALL primitive operations,
   subscriptions, guard settings, policies, depths, source modules `m` of the fragment and environments:
   C10_fun_results - two runs of the instrumented program, under any two subscriptions / guard settings / guard schedules, end with the
                     same exception (or none, or out of fuel) and the same bindings;
   C10_fun_plain   - namely those of the program as it is (no rewriting at all);
   C10_fun_stream  - the subscribed events arrive exactly as the gated reference `fref_module` writes them out: an invocation that starts
                     while the function's guard is off delivers nothing from that body (the functions it calls speak for themselves,
                     each according to its own guard), one that starts while it is on delivers its events also when the guard is
                     switched off half-way and is closed by after_function_execution however it ends (return, falling off the end,
                     exception); after a deactivation delivery resumes.
   K-fun ties model, evaluator and reference to the real rewriter, CPython and the real runtime under guard rules. *)
Theorem C10_fun_results : forall binop cmpop unop truth cval is_and c1 ge1 pol1 c2 ge2 pol2 m d r sv sv',
  forallb FragFunProofs.fsrc_t m = true ->
  FragFun.f_exc (FragFun.frun binop cmpop unop truth cval is_and c1 pol1 d (FragFun.finstr_module c1 ge1 m) r sv) =
  FragFun.f_exc (FragFun.frun binop cmpop unop truth cval is_and c2 pol2 d (FragFun.finstr_module c2 ge2 m) r sv') /\
  FragFun.f_env (FragFun.frun binop cmpop unop truth cval is_and c1 pol1 d (FragFun.finstr_module c1 ge1 m) r sv) =
  FragFun.f_env (FragFun.frun binop cmpop unop truth cval is_and c2 pol2 d (FragFun.finstr_module c2 ge2 m) r sv').
Proof. exact FragFunProofs.fun_results. Qed.
Print Assumptions C10_fun_results.

Theorem C10_fun_plain : forall binop cmpop unop truth cval is_and c ge pol c0 pol0 m d r sv sv',
  forallb FragFunProofs.fsrc_t m = true ->
  FragFun.f_exc (FragFun.frun binop cmpop unop truth cval is_and c pol d (FragFun.finstr_module c ge m) r sv) =
  FragFun.f_exc (FragFun.frun binop cmpop unop truth cval is_and c0 pol0 d m r sv') /\
  FragFun.f_env (FragFun.frun binop cmpop unop truth cval is_and c pol d (FragFun.finstr_module c ge m) r sv) =
  FragFun.f_env (FragFun.frun binop cmpop unop truth cval is_and c0 pol0 d m r sv').
Proof. exact FragFunProofs.fun_plain. Qed.
Print Assumptions C10_fun_plain.

Theorem C10_fun_stream : forall binop cmpop unop truth cval is_and c ge pol m d r sv,
  forallb FragFunProofs.fsrc_t m = true ->
  FragSem.filter_log c (FragFun.f_log (FragFun.frun binop cmpop unop truth cval is_and c pol d (FragFun.finstr_module c ge m) r sv)) =
  FragSem.filter_log c (FragFun.fr_log (FragFun.fref_module binop cmpop unop truth cval is_and c pol ge d m r)).
Proof. exact FragFunProofs.fun_stream. Qed.
Print Assumptions C10_fun_stream.

(* non-vacuity: `def f(p): return p + 1`, `a = f(1)`, `b = f(2)` with load_name, before_function_body and after_function_execution
   subscribed.  With the guard of f on throughout: 8 events (per call: the load of `f`, before_function_body, the load of `p`,
   after_function_execution); with the guard switched off as soon as the first after_function_execution has been delivered the second
   invocation is silent (only the load of `f` at the call site, which is not in the body, arrives): 5 events; a = 2, b = 3 either way *)
Definition ex_fun : list FragFun.fstmt :=
  [FragFun.FDef 1 100 [101] [FragFun.FReturn 4 (Some (FragFun.RExp (FragSem.XBin 5 (FragSem.XName 6 101) kAdd (FragSem.XConst 9 (SInt 1%Z)))))];
   FragFun.FAssign 10 [102] (FragFun.RCall 13 false false false (FragSem.XName 14 100) [FragSem.XConst 16 (SInt 1%Z)]);
   FragFun.FAssign 17 [103] (FragFun.RCall 20 false false false (FragSem.XName 21 100) [FragSem.XConst 23 (SInt 2%Z)])]%N.
Definition ex_fc : RwFrag.rcfg :=
  {| RwFrag.sub := fun e => existsb (Events.event_eqb e) [Events.E_load_name; Events.E_before_function_body; Events.E_after_function_execution] |}.
Definition fpol_on : list FragSem.entry -> N -> bool := fun _ _ => true.
Definition fpol_off_after_first : list FragSem.entry -> N -> bool :=
  fun log g => negb (N.eqb g 1 && existsb (fun en => Events.event_eqb (fst (fst en)) Events.E_after_function_execution) log).
Example C10_fun_nonvacuous :
  forallb FragFunProofs.fsrc_t ex_fun = true /\
  let run pol := FragFun.frun FragSem.Py.binop FragSem.Py.cmpop FragSem.Py.unop FragSem.Py.truth FragSem.Py.cval FragSem.Py.is_and ex_fc pol 5
                   (FragFun.finstr_module ex_fc true ex_fun) (fun _ => None) FragSem.VNone in
  FragFun.f_env (run fpol_on) 102%N = Some (FragSem.VInt 2) /\ FragFun.f_env (run fpol_on) 103%N = Some (FragSem.VInt 3) /\
  FragFun.f_env (run fpol_off_after_first) 102%N = Some (FragSem.VInt 2) /\ FragFun.f_env (run fpol_off_after_first) 103%N = Some (FragSem.VInt 3) /\
  FragFun.f_exc (run fpol_on) = None /\
  length (FragFun.f_log (run fpol_on)) = 8%nat /\ length (FragFun.f_log (run fpol_off_after_first)) = 5%nat.
Proof. vm_compute. repeat split; reflexivity. Qed.

(* LOOPS AND FUNCTIONS TOGETHER (model/FragProg.v): while / else / break / continue inside function bodies, `return` from inside a loop (through the
   try / finally of an instrumented iteration), module-level loops calling functions, recursion through loops; two kinds of fuel (iterations per
   loop execution, call depth); ONE arbitrary policy `pol` over loop-test, loop-body and function guards.  The pristine copy of a loop body keeps
   guarded tests on nested loops, the pristine copy of a function body is plain.  For ALL primitive operations, subscriptions, guard settings,
   policies, fuels, source modules of the fragment and environments:
   C10_prog_results / C10_prog_plain / C10_prog_stream - as C10_frag_* and C10_fun_*, restated for the larger fragment.
   K-prog ties model, evaluator and reference to the real rewriter, CPython and the real runtime under guard rules on all three kinds of guard. *)
Theorem C10_prog_results : forall binop cmpop unop truth cval is_and fuel c1 ge1 pol1 c2 ge2 pol2 m d r sv sv',
  forallb FragProgProofs.psrc_t m = true ->
  FragProg.p_exc (FragProg.prun binop cmpop unop truth cval is_and c1 pol1 fuel d (FragProg.pinstr_module c1 ge1 m) r sv) =
  FragProg.p_exc (FragProg.prun binop cmpop unop truth cval is_and c2 pol2 fuel d (FragProg.pinstr_module c2 ge2 m) r sv') /\
  FragProg.p_env (FragProg.prun binop cmpop unop truth cval is_and c1 pol1 fuel d (FragProg.pinstr_module c1 ge1 m) r sv) =
  FragProg.p_env (FragProg.prun binop cmpop unop truth cval is_and c2 pol2 fuel d (FragProg.pinstr_module c2 ge2 m) r sv').
Proof. exact FragProgProofs.prog_results. Qed.
Print Assumptions C10_prog_results.

Theorem C10_prog_plain : forall binop cmpop unop truth cval is_and fuel c ge pol c0 pol0 m d r sv sv',
  forallb FragProgProofs.psrc_t m = true ->
  FragProg.p_exc (FragProg.prun binop cmpop unop truth cval is_and c pol fuel d (FragProg.pinstr_module c ge m) r sv) =
  FragProg.p_exc (FragProg.prun binop cmpop unop truth cval is_and c0 pol0 fuel d m r sv') /\
  FragProg.p_env (FragProg.prun binop cmpop unop truth cval is_and c pol fuel d (FragProg.pinstr_module c ge m) r sv) =
  FragProg.p_env (FragProg.prun binop cmpop unop truth cval is_and c0 pol0 fuel d m r sv').
Proof. exact FragProgProofs.prog_plain. Qed.
Print Assumptions C10_prog_plain.

Theorem C10_prog_stream : forall binop cmpop unop truth cval is_and fuel c ge pol m d r sv,
  forallb FragProgProofs.psrc_t m = true ->
  FragSem.filter_log c (FragProg.p_log (FragProg.prun binop cmpop unop truth cval is_and c pol fuel d (FragProg.pinstr_module c ge m) r sv)) =
  FragSem.filter_log c (FragProg.pr_log (FragProg.pref_module binop cmpop unop truth cval is_and c pol fuel ge d m r)).
Proof. exact FragProgProofs.prog_stream. Qed.
Print Assumptions C10_prog_stream.

(* non-vacuity: `def f(p): i = 0; while i < p: i = i + 1; if i > 1: return i` / `return 0`, then `a = f(3)`, with before_while_loop_body,
   after_while_loop_iter, after_return and after_function_execution subscribed.  All guards on: iteration 1 is bracketed, iteration 2 is entered,
   returns (after_return), and is still closed by after_while_loop_iter on the way out, then after_function_execution: 6 events.  With the body
   guard of the loop switched off once the first after_while_loop_iter has been delivered, iteration 2 runs the pristine copy: its `return i` is
   a plain return, nothing brackets it; the function itself is still loud: 3 events.  a = 2 either way *)
Definition ex_prog : list FragProg.pstmt :=
  [FragProg.PDef 1 100 [101]
     [FragProg.PAssign 4 [102] (FragFun.RExp (FragSem.XConst 7 (SInt 0%Z)));
      FragProg.PWhile 8 (FragSem.XCmp 9 (FragSem.XName 10 102) [kLt] [FragSem.XName 13 101])
        [FragProg.PAssign 15 [102] (FragFun.RExp (FragSem.XBin 18 (FragSem.XName 19 102) kAdd (FragSem.XConst 22 (SInt 1%Z))));
         FragProg.PIf 23 (FragSem.XCmp 24 (FragSem.XName 25 102) [kGt] [FragSem.XConst 28 (SInt 1%Z)])
           [FragProg.PReturn 29 (Some (FragFun.RExp (FragSem.XName 30 102)))] []] [];
      FragProg.PReturn 32 (Some (FragFun.RExp (FragSem.XConst 33 (SInt 0%Z))))];
   FragProg.PAssign 34 [103] (FragFun.RCall 37 false false false (FragSem.XName 38 100) [FragSem.XConst 40 (SInt 3%Z)])]%N.
Definition ex_pc : RwFrag.rcfg :=
  {| RwFrag.sub := fun e => existsb (Events.event_eqb e) [Events.E_before_while_loop_body; Events.E_after_while_loop_iter; Events.E_after_return; Events.E_after_function_execution] |}.
Definition ppol_on : list FragSem.entry -> FragProg.guard -> bool := fun _ _ => true.
Definition ppol_off_after_first : list FragSem.entry -> FragProg.guard -> bool :=
  fun log g => match g with
               | FragProg.GBody 8 => negb (existsb (fun en => Events.event_eqb (fst (fst en)) Events.E_after_while_loop_iter) log)
               | _ => true
               end.
Example C10_prog_nonvacuous :
  forallb FragProgProofs.psrc_t ex_prog = true /\
  let run pol := FragProg.prun FragSem.Py.binop FragSem.Py.cmpop FragSem.Py.unop FragSem.Py.truth FragSem.Py.cval FragSem.Py.is_and ex_pc pol 10 5
                   (FragProg.pinstr_module ex_pc true ex_prog) (fun _ => None) FragSem.VNone in
  FragProg.p_exc (run ppol_on) = None /\ FragProg.p_env (run ppol_on) 103%N = Some (FragSem.VInt 2) /\
  FragProg.p_env (run ppol_off_after_first) 103%N = Some (FragSem.VInt 2) /\
  length (FragProg.p_log (run ppol_on)) = 6%nat /\ length (FragProg.p_log (run ppol_off_after_first)) = 3%nat.
Proof. vm_compute. repeat split; reflexivity. Qed.
