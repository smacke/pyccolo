(* C02 - each event fires exactly once per occurrence, in order, with true value and node.
   Three layers:
   (static)  the rewriter output is checked, program by program, by two verified checkers evaluated in coqc:
             check_erase (C01: the output is the source plus recognised instrumentation shapes) and check_sites
             (model/Sites.v: at every emit site, the expression handed to the handler is - after erasing its own
             instrumentation - exactly the source construct, located by the node id embedded in the site, whose value the
             event table says the event reports).  C02_site_value turns a passed check into semantic equivalence, for
             every semantics satisfying the laws of proofs/EraseSound.v.
   (delivery) one occurrence reaching emit_event is delivered to each enabled handler exactly once, in stack order, carrying
             the value unchanged: C02_delivered_iff / C02_delivery_order / C02_value (from the runtime fold of model/Rt.v,
             whose decision functions are regenerated from tracer.py / emit_event.py on every run).
   (dynamic) ./check C02 compares the complete recorded stream (event, node type, node span, value) with the stream of an
             independent probe-inserting reference instrumenter (tools/impl/ref_instr.py) on generated programs. *)
From Coq Require Import List ZArith NArith Bool Sorted.
Import ListNotations.
From PyccoloV Require model.RwFrag model.FragSem proofs.FragSemProofs model.FragFun proofs.FragFunProofs model.FragProg proofs.FragProgProofs.
From PyccoloV Require Import gen.PyAst gen.Ids gen.Events gen.EmitRet model.Val model.Rt model.Tree model.Erase model.Sites
  proofs.RtProofs proofs.DeliverProofs proofs.EraseSound.

Theorem C02_emit_observing : forall ev ts v, ast_event ev = true -> Forall observing ts -> plain v = true ->
  exists ths, emit ev true fl0 ts v = (TVal (make_ret ev v), fl0, ths, stack_calls 0 ts v).
Proof. exact emit_observing. Qed.
Print Assumptions C02_emit_observing.

(* handler k of a tracer's list for the event is called iff it is enabled (condition holds, local guard not set) ... *)
Theorem C02_delivered_iff : forall ti hs hi k h v, nth_error hs k = Some h ->
  (In (ti, hi + k, v) (calls_of ti hi hs v) <-> h_enabled h = true).
Proof. exact calls_of_in. Qed.
Print Assumptions C02_delivered_iff.

(* ... and the calls of one occurrence are STRICTLY ordered by (tracer position, handler position): nothing is delivered
   twice, and the order is activation order then definition order *)
Theorem C02_delivery_order : forall ts ti v, StronglySorted lex (stack_calls ti ts v).
Proof. exact stack_sorted. Qed.
Print Assumptions C02_delivery_order.

Theorem C02_value : forall ts v, Forall (fun c => c_val c = v) (stack_calls 0 ts v).
Proof. exact stack_values. Qed.
Print Assumptions C02_value.

Theorem C02_site_value :
  forall (D : Type) (dnone : D) (sem : N -> list scalar -> list (list D) -> D) (eqvl : list D -> list D -> Prop),
  (forall l, eqvl l l) ->
  (forall a b c, eqvl a b -> eqvl b c -> eqvl a c) ->
  (forall a a' b b', eqvl a a' -> eqvl b b' -> eqvl (a ++ b) (a' ++ b')) ->
  (forall k sc fs fs', Forall2 eqvl fs fs' -> eqvl [sem k sc fs] [sem k sc fs']) ->
  (forall sc fs l, post kCall sc fs = Some l -> eqvl [den D dnone sem (T kCall sc fs)] (map (den D dnone sem) l)) ->
  (forall sc fs l, post kIfExp sc fs = Some l -> eqvl [den D dnone sem (T kIfExp sc fs)] (map (den D dnone sem) l)) ->
  (forall sc fs l, post kIf sc fs = Some l -> eqvl [den D dnone sem (T kIf sc fs)] (map (den D dnone sem) l)) ->
  (forall sc fs l, post kTry sc fs = Some l -> eqvl [den D dnone sem (T kTry sc fs)] (map (den D dnone sem) l)) ->
  (forall sc fs l, post kExpr sc fs = Some l -> eqvl [den D dnone sem (T kExpr sc fs)] (map (den D dnone sem) l)) ->
  (forall sc fs l, post kSubscript sc fs = Some l -> eqvl [den D dnone sem (T kSubscript sc fs)] (map (den D dnone sem) l)) ->
  (forall t, eqvl [den D dnone sem (norm t)] [den D dnone sem t]) ->
  forall pre t ev n rest kws r node s v,
    emit_parts t = Some (ev, SNid n, rest, kws) -> sel_of ev = Some s -> kw_value id_ret kws = Some r -> tlam_parts r = None ->
    nth_error pre (N.to_nat n) = Some node -> select s node = Some v ->
    site_ok pre t = true -> eqvl [den D dnone sem r] [den D dnone sem v].
Proof. exact site_ok_sound. Qed.
Print Assumptions C02_site_value.

(* non-vacuity: x + 1 rewritten with load_name and after_binop subscribed: both sites pass; a site reporting the wrong
   operand fails *)
Local Open Scope N_scope.
Definition ld : tree := T kLoad [] [].
Definition nm (x : N) : tree := T kName [SId x] [[ld]].
Definition cst (z : Z) : tree := T kConstant [SInt z; SNone] [].
Definition emit_call (ev : event) (n : N) (r : tree) : tree :=
  T kCall [] [[nm id_emit]; [T kConstant [SStr (ev_code ev); SNone] []; T kConstant [SNid n; SNone] []]; [T kkeyword [SId id_ret] [[r]]]].
Definition ex_src : tree := T kBinOp [] [[nm 100]; [T kAdd [] []]; [cst 1]].
Definition ex_out : tree := emit_call E_after_binop 0 (T kBinOp [] [[emit_call E_load_name 1 (nm 100)]; [T kAdd [] []]; [cst 1]]).
Definition ex_bad : tree := emit_call E_after_binop 0 (T kBinOp [] [[emit_call E_load_name 4 (nm 100)]; [T kAdd [] []]; [cst 1]]).
Example C02_nonvacuous : check_sites ex_src ex_out = true /\ check_sites ex_src ex_bad = false /\ check_erase ex_src ex_out = true.
Proof. vm_compute. repeat split; reflexivity. Qed.

(* the event stream on the fragment (model/FragSem.v), for ALL primitive operations, subscriptions, source modules and environments:
   the events the tracer subscribes to arrive exactly as the reference evaluator `ref_module` writes them out construct by construct
   (this is the event table of DESIGN 11 restricted to the fragment): each occurrence once, in evaluation order, with the value and
   the node of that occurrence, also when the program raises half-way.  K-sem compares both sides with real runs. *)
Theorem C02_frag_stream : forall binop cmpop unop truth cval is_and (c : RwFrag.rcfg) (body : list FragSem.tstmt) (r : FragSem.env) (sv : FragSem.val),
  forallb FragSemProofs.src_s body = true ->
  FragSem.filter_log c (FragSem.s_log (FragSem.exec_l binop cmpop unop truth cval is_and (FragSem.instr_module c body) r sv)) =
  FragSem.filter_log c (FragSem.r_log (FragSem.ref_module binop cmpop unop truth cval is_and body r)).
Proof. exact FragSemProofs.frag_stream. Qed.
Print Assumptions C02_frag_stream.

(* non-vacuity: `a = 2 + 3` with the binop events and after_assign_rhs subscribed: the stream is
   before_binop, left_binop_arg 2, right_binop_arg 3, after_binop 5, after_assign_rhs 5 *)
Example C02_frag_stream_nonvacuous :
  let body := [FragSem.SAssign 1 [100] (FragSem.XBin 4 (FragSem.XConst 5 (SInt 2%Z)) kAdd (FragSem.XConst 7 (SInt 3%Z)))] in
  let c := {| RwFrag.sub := fun e => existsb (event_eqb e) [E_before_binop; E_left_binop_arg; E_right_binop_arg; E_after_binop; E_after_assign_rhs] |} in
  forallb FragSemProofs.src_s body = true /\
  FragSem.filter_log c (FragSem.s_log (FragSem.exec_l FragSem.Py.binop FragSem.Py.cmpop FragSem.Py.unop FragSem.Py.truth FragSem.Py.cval FragSem.Py.is_and
                                         (FragSem.instr_module c body) (fun _ => None) FragSem.VNone)) =
  [(E_before_binop, 4, None); (E_left_binop_arg, 5, Some (FragSem.VInt 2)); (E_right_binop_arg, 7, Some (FragSem.VInt 3));
   (E_after_binop, 4, Some (FragSem.VInt 5)); (E_after_assign_rhs, 4, Some (FragSem.VInt 5))].
Proof. vm_compute. split; reflexivity. Qed.

(* ... and with FUNCTIONS (model/FragFun.v): the subscribed events arrive exactly as the reference `fref_module` writes them out - per call
   before_load_complex_symbol, the load of the callee, before_call, per argument before_argument / its events / after_argument, then the
   body (before_function_body, its statements, after_function_execution ONCE PER INVOCATION HOWEVER IT ENDS: return, falling off the end,
   exception), after_call, after_load_complex_symbol; per `return v` before_return, the events of v, after_return - for all primitive
   operations, subscriptions, guard settings and policies, call depths, source modules and environments.  K-fun compares with real runs. *)
Theorem C02_fun_stream : forall binop cmpop unop truth cval is_and c ge pol m d r sv,
  forallb FragFunProofs.fsrc_t m = true ->
  FragSem.filter_log c (FragFun.f_log (FragFun.frun binop cmpop unop truth cval is_and c pol d (FragFun.finstr_module c ge m) r sv)) =
  FragSem.filter_log c (FragFun.fr_log (FragFun.fref_module binop cmpop unop truth cval is_and c pol ge d m r)).
Proof. exact FragFunProofs.fun_stream. Qed.
Print Assumptions C02_fun_stream.

(* non-vacuity: `def f(p): return p // 0` then `a = f(1)` with the function and call events subscribed: the invocation raises, and still
   after_function_execution closes it; after_call / after_return are not delivered *)
Example C02_fun_stream_nonvacuous :
  let m := [FragFun.FDef 1 100 [101] [FragFun.FReturn 4 (Some (FragFun.RExp (FragSem.XBin 5 (FragSem.XName 6 101) kFloorDiv (FragSem.XConst 9 (SInt 0%Z)))))];
            FragFun.FAssign 10 [102] (FragFun.RCall 13 false false false (FragSem.XName 14 100) [FragSem.XConst 16 (SInt 1%Z)])]%N in
  let c := {| RwFrag.sub := fun e => existsb (event_eqb e) [E_before_function_body; E_after_function_execution; E_before_call; E_after_call;
                                                            E_before_return; E_after_return; E_after_argument] |} in
  forallb FragFunProofs.fsrc_t m = true /\
  let a := FragFun.frun FragSem.Py.binop FragSem.Py.cmpop FragSem.Py.unop FragSem.Py.truth FragSem.Py.cval FragSem.Py.is_and c (fun _ _ => true) 3
             (FragFun.finstr_module c true m) (fun _ => None) FragSem.VNone in
  FragFun.f_exc a = Some (FragFun.FX FragSem.EZeroDiv) /\
  FragFun.f_log a = [(E_before_call, 13, Some (FragSem.VFun 1)); (E_after_argument, 16, Some (FragSem.VInt 1));
                     (E_before_function_body, 1, Some (FragSem.VBool true)); (E_before_return, 5, None); (E_after_function_execution, 1, Some FragSem.VNone)]%N.
Proof. vm_compute. repeat split; reflexivity. Qed.

(* ... and with LOOPS AND FUNCTIONS TOGETHER (model/FragProg.v): the subscribed events are those of the reference `pref_module`; in particular
   after_while_loop_iter closes every instrumented iteration and after_function_execution every instrumented invocation however they end -
   `return` from inside a loop passes both.  K-prog compares with real runs. *)
Theorem C02_prog_stream : forall binop cmpop unop truth cval is_and fuel c ge pol m d r sv,
  forallb FragProgProofs.psrc_t m = true ->
  FragSem.filter_log c (FragProg.p_log (FragProg.prun binop cmpop unop truth cval is_and c pol fuel d (FragProg.pinstr_module c ge m) r sv)) =
  FragSem.filter_log c (FragProg.pr_log (FragProg.pref_module binop cmpop unop truth cval is_and c pol fuel ge d m r)).
Proof. exact FragProgProofs.prog_stream. Qed.
Print Assumptions C02_prog_stream.

(* non-vacuity: `def f(p): while p: return p` then `a = f(1)` with the loop and function brackets subscribed: the `return` leaves the loop and the
   function, after_while_loop_iter and after_function_execution both arrive, in that order *)
Example C02_prog_stream_nonvacuous :
  let m := [FragProg.PDef 1 100 [101] [FragProg.PWhile 4 (FragSem.XName 5 101) [FragProg.PReturn 7 (Some (FragFun.RExp (FragSem.XName 8 101)))] []];
            FragProg.PAssign 10 [102] (FragFun.RCall 13 false false false (FragSem.XName 14 100) [FragSem.XConst 16 (SInt 1%Z)])]%N in
  let c := {| RwFrag.sub := fun e => existsb (event_eqb e) [E_before_function_body; E_after_function_execution; E_before_while_loop_body; E_after_while_loop_iter; E_after_return] |} in
  forallb FragProgProofs.psrc_t m = true /\
  let a := FragProg.prun FragSem.Py.binop FragSem.Py.cmpop FragSem.Py.unop FragSem.Py.truth FragSem.Py.cval FragSem.Py.is_and c (fun _ _ => true) 5 3
             (FragProg.pinstr_module c true m) (fun _ => None) FragSem.VNone in
  FragProg.p_exc a = None /\ FragProg.p_env a 102%N = Some (FragSem.VInt 1) /\
  FragProg.p_log a = [(E_before_function_body, 1, Some (FragSem.VBool true)); (E_before_while_loop_body, 4, Some (FragSem.VBool true));
                      (E_after_return, 8, Some (FragSem.VInt 1)); (E_after_while_loop_iter, 4, Some FragSem.VNone);
                      (E_after_function_execution, 1, Some FragSem.VNone)]%N.
Proof. vm_compute. repeat split; reflexivity. Qed.
