(* C03 - what a tracer sees for an event does not depend on which other events are on.
   Two statements, both about the REAL rewriter outputs (exported from CPython ASTs), decided program by program by
   checkers evaluated in coqc and made meaningful by the soundness theorems below:
   * check_only_subscribed subs out: every emission site of `out` is for a subscribed event, one of the two private
     helper events, or after_stmt serving a subscribed after_module_stmt  (C03_only_subscribed);
   * check_proj K out1 out2 (model/Prune.v): the outputs for E1 and for E2 (E1 within E2), K-erased for K = E1 - every
     site outside K removed together with guard / fallback scaffolding, kept sites left in place - are the same tree.
     C03_proj_sound: for EVERY semantics of Python ASTs and every equivalence eqvK ("same behaviour and same sub-stream of
     the K events") under which each root rewrite of the K-erasure is valid, a passed check implies that the two
     rewritten programs are eqvK-equivalent: the stream under E1 equals the stream under E2 filtered to E1.
   ./check C03 obtains both certificates for every generated program x pair of subsets, and compares the recorded streams
   of the two real runs (the laws are facts about CPython and about observing handlers; validated there, not proved). *)
From Coq Require Import List ZArith NArith Bool.
Import ListNotations.
From PyccoloV Require model.FragSem proofs.FragSemProofs model.FragFun model.FragProg proofs.FragProgProofs.
From PyccoloV Require Import gen.PyAst gen.Ids gen.Events model.Tree model.Erase model.Prune model.RwFrag proofs.EraseSound proofs.PruneSound
  proofs.RwFragProofs proofs.RwFragProj.

Theorem C03_proj_sound :
  forall (D : Type) (dnone : D) (sem : N -> list scalar -> list (list D) -> D) (K : list N) (eqvK : list D -> list D -> Prop),
  (forall l, eqvK l l) ->
  (forall a b, eqvK a b -> eqvK b a) ->
  (forall a b c, eqvK a b -> eqvK b c -> eqvK a c) ->
  (forall a a' b b', eqvK a a' -> eqvK b b' -> eqvK (a ++ b) (a' ++ b')) ->
  (forall k sc fs fs', Forall2 eqvK fs fs' -> eqvK [sem k sc fs] [sem k sc fs']) ->
  (forall k sc fs l, postk K k sc fs = Some l -> eqvK [den D dnone sem (T k sc fs)] (map (den D dnone sem) l)) ->
  forall out1 out2, check_proj K out1 out2 = true -> eqvK [den D dnone sem out1] [den D dnone sem out2].
Proof. exact check_proj_sound. Qed.
Print Assumptions C03_proj_sound.

Theorem C03_only_subscribed : forall subscribed out,
  check_only_subscribed subscribed out = true ->
  forall ev nid, In (ev, nid) (sites out) -> site_allowed subscribed ev = true.
Proof. exact check_only_subscribed_sound. Qed.
Print Assumptions C03_only_subscribed.

Theorem C03_kept_sites_all : forall K out, forallb (fun s => mem (fst s) K) (sites out) = true -> kept_sites K out = sites out.
Proof. exact kept_sites_all. Qed.
Print Assumptions C03_kept_sites_all.

(* ---- the unbounded statement on the fragment model of the rewriter (model/RwFrag.v, tied to the real rewriter by K-syn):
   for EVERY fragment program, EVERY set K of events without the private load_saved_expr_stmt_ret and EVERY subscription set
   containing K, K-erasing the rewrite gives one and the same tree (C03_rw_frag_canonical), so the rewrite for K alone and the
   rewrite for the superset pass the projection check (C03_rw_frag_proj): what a tracer subscribed to K sees does not depend on
   which other events are on. *)
Theorem C03_rw_frag_canonical : forall (K : list N) (c : rcfg) (m : tree),
  inK K E_priv_load_saved_expr_stmt_ret = false -> (forall e, inK K e = true -> sub c e = true) -> in_frag m = true ->
  erasek K (rw_module c m) = Some [rw_moduleK K m].
Proof. intros K c m HK Hs Hm. exact (rw_module_proj K HK c Hs m Hm). Qed.
Print Assumptions C03_rw_frag_canonical.
Theorem C03_rw_frag_proj : forall (K : list N) (c : rcfg) (m : tree),
  inK K E_priv_load_saved_expr_stmt_ret = false -> (forall e, inK K e = true -> sub c e = true) -> in_frag m = true ->
  check_proj K (rw_module (cK K) m) (rw_module c m) = true.
Proof. intros K c m HK Hs Hm. exact (rw_module_check_proj K HK c m Hs Hm). Qed.
Print Assumptions C03_rw_frag_proj.

(* non-vacuity: `x + 1` rewritten for {load_name} and for {load_name, after_binop}: the projection check passes for
   K = {load_name}; it fails when the larger rewrite lost the load_name site, or reports another node *)
Local Open Scope N_scope.
Definition ld : tree := T kLoad [] [].
Definition nm (x : N) : tree := T kName [SId x] [[ld]].
Definition cst (z : Z) : tree := T kConstant [SInt z; SNone] [].
Definition emit_call (ev : event) (n : N) (r : tree) : tree :=
  T kCall [] [[nm id_emit]; [T kConstant [SStr (ev_code ev); SNone] []; T kConstant [SNid n; SNone] []]; [T kkeyword [SId id_ret] [[r]]]].
Definition out1 : tree := T kBinOp [] [[emit_call E_load_name 1 (nm 100)]; [T kAdd [] []]; [cst 1]].
Definition out2 : tree := emit_call E_after_binop 0 out1.
Definition out2_lost : tree := emit_call E_after_binop 0 (T kBinOp [] [[nm 100]; [T kAdd [] []]; [cst 1]]).
Definition out2_moved : tree := emit_call E_after_binop 0 (T kBinOp [] [[emit_call E_load_name 4 (nm 100)]; [T kAdd [] []]; [cst 1]]).
Definition K1 : list N := [ev_code E_load_name].
Example C03_nonvacuous :
  check_proj K1 out1 out2 = true /\ check_proj K1 out1 out2_lost = false /\ check_proj K1 out1 out2_moved = false
  /\ check_only_subscribed K1 out1 = true /\ check_only_subscribed K1 out2 = false.
Proof. vm_compute. repeat split; reflexivity. Qed.

(* the projection property as a statement about EVALUATION on the fragment (model/FragSem.v), for ALL primitive operations: the stream
   a tracer receives for its events K from the program instrumented for any superset E is the stream it receives when K alone is subscribed *)
Theorem C03_frag_projection : forall binop cmpop unop truth cval is_and (K E : rcfg) (body : list FragSem.tstmt) (r : FragSem.env) (sv sv' : FragSem.val),
  forallb FragSemProofs.src_s body = true -> (forall e, sub K e = true -> sub E e = true) ->
  FragSem.filter_log K (FragSem.s_log (FragSem.exec_l binop cmpop unop truth cval is_and (FragSem.instr_module E body) r sv)) =
  FragSem.filter_log K (FragSem.s_log (FragSem.exec_l binop cmpop unop truth cval is_and (FragSem.instr_module K body) r sv')).
Proof. exact FragSemProofs.frag_projection. Qed.
Print Assumptions C03_frag_projection.

(* ... and with LOOPS AND FUNCTIONS (model/FragProg.v): as long as no handler touches a guard (the guards stay in any fixed state G), the stream a
   tracer receives for its events K from the program instrumented for any superset E is the stream it receives when K alone is subscribed -
   for all primitive operations, guard states, guard settings, fuels, source modules and environments.  (When handlers do flip guards the two
   runs can differ legitimately: the handlers of E see more events and may flip at other moments; that dependence is C10's subject.) *)
Theorem C03_prog_projection : forall binop cmpop unop truth cval is_and fuel (K E : rcfg) (G : FragProg.guard -> bool) ge m d r sv sv',
  forallb FragProgProofs.psrc_t m = true -> (forall e, sub K e = true -> sub E e = true) ->
  FragSem.filter_log K (FragProg.p_log (FragProg.prun binop cmpop unop truth cval is_and E (fun _ g => G g) fuel d (FragProg.pinstr_module E ge m) r sv)) =
  FragSem.filter_log K (FragProg.p_log (FragProg.prun binop cmpop unop truth cval is_and K (fun _ g => G g) fuel d (FragProg.pinstr_module K ge m) r sv')).
Proof. exact FragProgProofs.prog_projection. Qed.
Print Assumptions C03_prog_projection.

(* non-vacuity: `def f(p): while p: return p` / `a = f(1)`: with load_name alone 3 loads are delivered; with everything subscribed 29 events, of
   which the same 3 loads *)
Example C03_prog_projection_nonvacuous :
  let m := [FragProg.PDef 1 100 [101] [FragProg.PWhile 4 (FragSem.XName 5 101) [FragProg.PReturn 7 (Some (FragFun.RExp (FragSem.XName 8 101)))] []];
            FragProg.PAssign 10 [102] (FragFun.RCall 13 false false false (FragSem.XName 14 100) [FragSem.XConst 16 (SInt 1%Z)])]%N in
  let K := {| sub := fun e => event_eqb e E_load_name |} in
  let E := {| sub := fun _ => true |} in
  let run c := FragProg.p_log (FragProg.prun FragSem.Py.binop FragSem.Py.cmpop FragSem.Py.unop FragSem.Py.truth FragSem.Py.cval FragSem.Py.is_and c (fun _ _ => true) 5 3
                                 (FragProg.pinstr_module c true m) (fun _ => None) FragSem.VNone) in
  forallb FragProgProofs.psrc_t m = true /\ length (run K) = 3%nat /\ FragSem.filter_log K (run E) = run K /\ Nat.ltb 20 (length (run E)) = true.
Proof. vm_compute. repeat split; reflexivity. Qed.
