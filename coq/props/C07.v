(* C07 - leaving all tracing contexts leaves the interpreter as it was found.
   Model: model/Ctx.v.  core_eq s s' says that s' agrees with s on: the tracer stack, every tracer's enabled and
   hard-disabled flags, presence of the emit hook, presence of guard names, the owner of EXEC_SAVED_THUNK, the
   interpreter's trace function, the stack of patched sys.settrace/gettrace functions, the number of pyccolo
   finders on sys.meta_path (and the saved `existing tracer` of enabled tracers). *)
From Coq Require Import List NArith Bool Arith.
Import ListNotations.
From PyccoloV Require Import model.Ctx proofs.CtxProofs.

(* every history tree - AST-level and system-level tracers, IRaise at any position, caught at any depth or escaping
   everything - run from a state with no active context ends in a state with the same process-global fields, no
   emit hook, no guard names, no thunk/lambda helpers *)
Theorem C07_restore : forall cfg items s, Inv s -> stack s = [] -> wf_items (ntr s) items ->
  let s' := snd (fst (run_items cfg items s)) in
  core_eq s s' /\ Inv s' /\ stack s' = [] /\ emit_present s' = false /\ guards_live s' = false /\
  thunk_owner s' = None /\ lam_owner s' = None.
Proof. exact restore_general. Qed.
Print Assumptions C07_restore.

(* code compiled while tracing still runs, silently, afterwards: once any context has been entered both flags stay
   defined (C07_flags_defined), and with no context active every function / lambda / loop site takes its pristine
   branch - no delivery, no NameError *)
Theorem C07_flags_defined : forall cfg t d body rest s,
  defd (snd (fst (run_items cfg rest (snd (fst (run_item cfg (ICtx t d body) s)))))).
Proof. intros. apply defd_items. apply ctx_defines. Qed.
Print Assumptions C07_flags_defined.
Theorem C07_after : forall s k, Inv s -> stack s = [] -> defd s -> k <> KTop -> run_site s k = SPlain.
Proof. exact after_sites_plain. Qed.
Print Assumptions C07_after.

(* non-vacuity: a history with a system-level tracer, a pre-installed trace function and a raise escaping three
   nested contexts restores the state; calling the compiled lambda afterwards is silent *)
Definition ex_cfg (t : nat) : tcfg := {| has_sys := Nat.eqb t 0; patch_meta := true |}.
Definition ex_hist : list item := [ICtx 1 false [ISite KTop; ICtx 0 false [ISite KFunc; ICtx 1 true [IRaise]]]].
Example C07_nonvacuous :
  let s0 := init_cst 2 (TfUser 7) in
  let s' := snd (fst (run_items ex_cfg ex_hist s0)) in
  Inv s0 /\ stack s0 = [] /\ wf_items 2 ex_hist /\ fst (fst (run_items ex_cfg ex_hist s0)) = true /\
  cur_trace s' = TfUser 7 /\ settrace_patches s' = [] /\ meta_finders s' = 0 /\ run_site s' KLam = SPlain.
Proof. split; [apply init_inv|]. split; [reflexivity|]. split; [cbn; repeat split; auto; discriminate|]. vm_compute. repeat split; reflexivity. Qed.
