(* C01 - no-op instrumentation never changes what the program does.
   What is proved here first (the erasure certificate: a checker of the real rewriter output, and its soundness):
   * `check_erase src out` is an executable certificate check on the REAL rewriter output `out` of a program `src`
     (both exported from CPython ASTs): it erases every emit site, guard, fallback and thunk scaffold bottom-up,
     checking that the pristine copies in guard-off / fallback branches agree with the instrumented branches, and
     compares the result with the source after the three deliberate source changes (norm).
   * C01_erase_sound: for EVERY semantics of Python ASTs (D, sem) and every observational equivalence eqvl that satisfy
     the listed laws - non-interference of constructs (sem_cong), one validity law per instrumentation shape, and the
     norm law - a passed check implies that the rewritten program is equivalent to the source.
   ./check C01 evaluates check_erase in coqc (vm_compute) on every generated program x event subset x guard setting:
   each `true` is a machine-checked certificate for that program.  The laws are facts about CPython; they are
   validated by the differential oracle (plain exec vs instrumented exec), not proved. *)
From Coq Require Import List ZArith NArith Bool.
Import ListNotations.
From PyccoloV Require proofs.DocProofs.
From PyccoloV Require Import gen.PyAst gen.Events model.Tree model.Erase model.RwFrag proofs.EraseSound proofs.RwFragProofs.
From PyccoloV Require Import model.FragSem proofs.FragSemProofs.
From PyccoloV Require model.FragFun proofs.FragFunProofs model.FragProg proofs.FragProgProofs.

Theorem C01_erase_sound :
  forall (D : Type) (dnone : D) (sem : N -> list scalar -> list (list D) -> D) (eqvl : list D -> list D -> Prop),
  (forall l, eqvl l l) ->
  (forall a b c, eqvl a b -> eqvl b c -> eqvl a c) ->
  (forall a a' b b', eqvl a a' -> eqvl b b' -> eqvl (a ++ b) (a' ++ b')) ->
  (forall k sc fs fs', Forall2 eqvl fs fs' -> eqvl [sem k sc fs] [sem k sc fs']) ->
  (forall sc fs l, post kCall sc fs = Some l -> eqvl [den D dnone sem (T kCall sc fs)] (map (den D dnone sem) l)) ->
  (forall sc fs l, post kIfExp sc fs = Some l -> eqvl [den D dnone sem (T kIfExp sc fs)] (map (den D dnone sem) l)) ->
  (forall sc fs l, post kIf sc fs = Some l -> eqvl [den D dnone sem (T kIf sc fs)] (map (den D dnone sem) l)) ->
  (forall sc fs l, post kTry sc fs = Some l -> eqvl [den D dnone sem (T kTry sc fs)] (map (den D dnone sem) l)) ->
  (forall sc fs l, post kExpr sc fs = Some l -> eqvl [den D dnone sem (T kExpr sc fs)] (map (den D dnone sem) l)) ->
  (forall sc fs l, post kSubscript sc fs = Some l -> eqvl [den D dnone sem (T kSubscript sc fs)] (map (den D dnone sem) l)) ->
  (forall t, eqvl [den D dnone sem (norm t)] [den D dnone sem t]) ->
  forall src out, check_erase src out = true -> eqvl [den D dnone sem out] [den D dnone sem src].
Proof. exact check_erase_sound. Qed.
Print Assumptions C01_erase_sound.

(* the general form, for any sub-term and without the norm law: whatever erase returns is equivalent to its input *)
Theorem C01_erase_any :
  forall (D : Type) (dnone : D) (sem : N -> list scalar -> list (list D) -> D) (eqvl : list D -> list D -> Prop),
  (forall l, eqvl l l) ->
  (forall a b c, eqvl a b -> eqvl b c -> eqvl a c) ->
  (forall a a' b b', eqvl a a' -> eqvl b b' -> eqvl (a ++ b) (a' ++ b')) ->
  (forall k sc fs fs', Forall2 eqvl fs fs' -> eqvl [sem k sc fs] [sem k sc fs']) ->
  (forall sc fs l, post kCall sc fs = Some l -> eqvl [den D dnone sem (T kCall sc fs)] (map (den D dnone sem) l)) ->
  (forall sc fs l, post kIfExp sc fs = Some l -> eqvl [den D dnone sem (T kIfExp sc fs)] (map (den D dnone sem) l)) ->
  (forall sc fs l, post kIf sc fs = Some l -> eqvl [den D dnone sem (T kIf sc fs)] (map (den D dnone sem) l)) ->
  (forall sc fs l, post kTry sc fs = Some l -> eqvl [den D dnone sem (T kTry sc fs)] (map (den D dnone sem) l)) ->
  (forall sc fs l, post kExpr sc fs = Some l -> eqvl [den D dnone sem (T kExpr sc fs)] (map (den D dnone sem) l)) ->
  (forall sc fs l, post kSubscript sc fs = Some l -> eqvl [den D dnone sem (T kSubscript sc fs)] (map (den D dnone sem) l)) ->
  forall t l, erase t = Some l -> eqvl [den D dnone sem t] (map (den D dnone sem) l).
Proof. exact erase_sound. Qed.
Print Assumptions C01_erase_any.

(* ---- an unbounded statement about the rewriter itself, on a fragment of Python.
   model/RwFrag.v is a Gallina model of the two rewriting passes (ExprRewriter on names, constants, binary operations,
   comparison chains, unary / boolean / conditional expressions; expression statements, assignments, pass, if / else with
   nested bodies; StatementInserter's before_stmt / after_stmt / after_module_stmt expansion, init_module / exit_module;
   EmitterMixin.emit with direct and deferred events), for every set of unconditionally subscribed events.  ./check C01
   compares rw_module with the REAL rewriter's output by whole-tree equality on generated fragment programs (K-syn).
   C01_rw_frag: for EVERY fragment program and EVERY subscription set, erasing the model's output gives back the source;
   C01_rw_frag_certified: hence the erasure certificate holds (and with C01_erase_sound, equivalence under the laws). *)
Theorem C01_rw_frag : forall (c : rcfg) (m : tree), in_frag m = true -> erase (rw_module c m) = Some [m].
Proof. exact rw_module_erase. Qed.
Print Assumptions C01_rw_frag.
(* ... and a module docstring stays the first statement, as written, before init_module (the fragment has no other scopes) *)
Theorem C01_rw_frag_docstring : forall (c : rcfg) (m : tree), in_frag m = true ->
  exists body' ti, rw_module c m = T kModule [] [body'; ti] /\ doc_head_ok body' = true.
Proof. exact rw_module_doc_head. Qed.
Print Assumptions C01_rw_frag_docstring.
Theorem C01_rw_frag_certified : forall (c : rcfg) (m : tree), in_frag m = true -> check_erase m (rw_module c m) = true.
Proof. exact rw_module_certified. Qed.
Print Assumptions C01_rw_frag_certified.

(* non-vacuity: the laws are satisfiable - the trivial semantics (one denotation) satisfies all of them - and the
   check really computes: `x = EMIT(<event>, <id>, ret=7, guards_by_handler_spec_id=None)` erases to `x = 7` *)
Local Open Scope N_scope.
Definition ex_src : tree :=
  T kModule [] [[T kAssign [SNone] [[T kName [SId 100] [[T kStore [] []]]]; [T kConstant [SInt 7%Z; SNone] []]]]; []].
Definition ex_out : tree :=
  T kModule [] [[T kAssign [SNone] [[T kName [SId 100] [[T kStore [] []]]];
     [T kCall [] [[T kName [SId 1] [[T kLoad [] []]]]; [T kConstant [SStr 1090; SNone] []; T kConstant [SNid 3; SNone] []];
                  [T kkeyword [SId 6] [[T kConstant [SInt 7%Z; SNone] []]]; T kkeyword [SId 7] [[T kConstant [SNone; SNone] []]]]]]]]; []].
Example C01_nonvacuous : check_erase ex_src ex_out = true /\ check_erase ex_src ex_src = true.
Proof. vm_compute. split; reflexivity. Qed.

(* DOCSTRING POSITIONS (model/Erase.v check_docs, proofs/DocProofs.v).  `EMIT(.., ret="s")` has the value of "s", and the erasure treats it
   so; but a string is the docstring of a function / class / module only when it stands, as written, as the first statement of the body -
   a fact about syntax that no law of C01_erase_sound sees.  `check_docs out` is evaluated on every rewriter output together with check_erase;
   for EVERY tree it accepts and every function / class / module body ANYWHERE in it (guard-exempt and pristine copies included): if the erased
   body (which check_erase compares with the source) begins with a docstring, then the body as written begins with that very statement;
   and a docstring written at the head of a body is the head of the erased body.  So source and output have their docstrings in the same places. *)
Theorem C01_docstrings_kept : forall out k sc fs body d' rest,
  check_docs out = true -> DocProofs.subtree (T k sc fs) out -> scope_body k fs = Some body ->
  erase_stmts body = Some (d' :: rest) -> is_docstring_strict d' = true ->
  exists body', body = d' :: body'.
Proof. exact DocProofs.check_docs_everywhere. Qed.
Print Assumptions C01_docstrings_kept.
Theorem C01_docstrings_erased : forall d body l,
  is_docstring_strict d = true -> erase_stmts (d :: body) = Some l -> exists rest, l = d :: rest.
Proof. exact DocProofs.doc_head_erased. Qed.
Print Assumptions C01_docstrings_erased.

(* non-vacuity: `def f(): "doc"; pass` whose string has been wrapped passes check_erase (the value is the same) and fails check_docs;
   left as written it passes both *)
Definition doc_fun (d : tree) : tree :=
  T kModule [] [[T kFunctionDef [SId 100%N; SNone] [[T karguments [] [[]; []; []; []; []; []; []]]; [d; T kPass [] []]; []; []; []]]; []].
Definition doc_stmt : tree := T kExpr [] [[T kConstant [SStr 500%N; SNone] []]].
Definition doc_wrapped : tree :=
  T kExpr [] [[T kCall [] [[T kName [SId 1%N] [[T kLoad [] []]]]; [T kConstant [SStr 1090%N; SNone] []; T kConstant [SNid 3%N; SNone] []];
                          [T kkeyword [SId 6%N] [[T kConstant [SStr 500%N; SNone] []]]]]]].
Example C01_docstrings_nonvacuous :
  check_erase (doc_fun doc_stmt) (doc_fun doc_wrapped) = true /\ check_docs (doc_fun doc_wrapped) = false /\
  check_erase (doc_fun doc_stmt) (doc_fun doc_stmt) = true /\ check_docs (doc_fun doc_stmt) = true.
Proof. vm_compute. repeat split; reflexivity. Qed.

(* non-vacuity of the fragment theorem: `a = b + 1 < 2 < a` then `if a: a` is in the fragment, and with every event on
   the model's output is a different, much larger tree *)
Definition nmv (x : N) (ctx : N) : tree := T kName [SId x] [[T ctx [] []]].
Definition ex_frag : tree :=
  T kModule [] [[T kAssign [SNone] [[nmv 100 kStore]; [T kCompare [] [[T kBinOp [] [[nmv 101 kLoad]; [T kAdd [] []]; [T kConstant [SInt 1%Z; SNone] []]]];
                                                      [T kLt [] []; T kLt [] []]; [T kConstant [SInt 2%Z; SNone] []; nmv 100 kLoad]]]];
                 T kIf [] [[nmv 100 kLoad]; [T kExpr [] [[nmv 100 kLoad]]]; []]]; []].
Example C01_rw_frag_nonvacuous :
  in_frag ex_frag = true /\ Nat.ltb (4 * size ex_frag) (size (rw_module {| sub := fun _ => true |} ex_frag)) = true.
Proof. vm_compute. split; reflexivity. Qed.

(* SEMANTICS on the fragment (model/FragSem.v): typed terms for source programs and for what the rewriter makes of them
   (`instr_module`, compared with the real rewriter's output tree on every K-sem program), evaluation under observing handlers.
   For ALL primitive operations (binary / comparison / unary operators, truth, constants), every subscription, every source
   module of the fragment, every initial environment: the instrumented program ends with the exception (or none) and the
   bindings of the program as it is.  No law is assumed: this is a theorem about the evaluator, which K-sem ties to CPython
   and the real runtime (exception type, final bindings, event stream of real runs = the evaluator's). *)
Theorem C01_frag_semantics : forall binop cmpop unop truth cval is_and (c : rcfg) (body : list tstmt) (r : env) (sv sv' : val),
  forallb src_s body = true ->
  s_exc (exec_l binop cmpop unop truth cval is_and (instr_module c body) r sv) = s_exc (exec_l binop cmpop unop truth cval is_and body r sv') /\
  s_env (exec_l binop cmpop unop truth cval is_and (instr_module c body) r sv) = s_env (exec_l binop cmpop unop truth cval is_and body r sv').
Proof. exact frag_semantics. Qed.
Print Assumptions C01_frag_semantics.

(* non-vacuity: `a = 2; b = a + 3 < 9; if b: a // 0` is a source module; with every event subscribed it still ends in ZeroDivisionError with a = 2, b = True *)
Definition ex_sem : list tstmt :=
  [SAssign 1 [100] (XConst 4 (SInt 2%Z));
   SAssign 5 [101] (XCmp 8 (XBin 9 (XName 10 100) kAdd (XConst 13 (SInt 3%Z))) [kLt] [XConst 15 (SInt 9%Z)]);
   SIf 16 (XName 17 101) [SExpr 19 (XBin 20 (XName 21 100) kFloorDiv (XConst 24 (SInt 0%Z)))] []]%N.
Example C01_frag_semantics_nonvacuous :
  forallb src_s ex_sem = true /\
  let a := exec_l Py.binop Py.cmpop Py.unop Py.truth Py.cval Py.is_and (instr_module {| sub := fun _ => true |} ex_sem) (fun _ => None) VNone in
  s_exc a = Some EZeroDiv /\ s_env a 100%N = Some (VInt 2) /\ s_env a 101%N = Some (VBool true) /\ length (s_log a) = 32%nat.
Proof. vm_compute. repeat split; reflexivity. Qed.

(* ... and with FUNCTIONS (model/FragFun.v: module-level definitions, return, calls as right-hand sides, recursion on call-depth fuel `d`,
   Python's local / global scoping): for all primitive operations, subscriptions `c`, guard settings `ge`, guard policies `pol`, depths, source
   modules of the fragment and environments, the instrumented program ends with the exception (or none, or out of fuel) and the bindings of
   the program as it is.  K-fun ties the model to the real rewriter (whole-tree equality), CPython and the real runtime. *)
Theorem C01_fun_semantics : forall binop cmpop unop truth cval is_and c ge pol c0 pol0 m d r sv sv',
  forallb FragFunProofs.fsrc_t m = true ->
  FragFun.f_exc (FragFun.frun binop cmpop unop truth cval is_and c pol d (FragFun.finstr_module c ge m) r sv) =
  FragFun.f_exc (FragFun.frun binop cmpop unop truth cval is_and c0 pol0 d m r sv') /\
  FragFun.f_env (FragFun.frun binop cmpop unop truth cval is_and c pol d (FragFun.finstr_module c ge m) r sv) =
  FragFun.f_env (FragFun.frun binop cmpop unop truth cval is_and c0 pol0 d m r sv').
Proof. exact FragFunProofs.fun_plain. Qed.
Print Assumptions C01_fun_semantics.

(* non-vacuity: `def h(p): if p <= 0: return 0` / `d = h(p - 1)` / `return d + p`, then `a = h(3)`: a recursive source module; with every
   event subscribed it ends with a = 6 (the four nested invocations h(3) .. h(0) need depth 4: with depth 3 both the source and the
   instrumented program run out of fuel) *)
Definition ex_rec : list FragFun.fstmt :=
  [FragFun.FDef 1 100 [101]
     [FragFun.FIf 4 (XCmp 5 (XName 6 101) [kLtE] [XConst 9 (SInt 0%Z)]) [FragFun.FReturn 10 (Some (FragFun.RExp (XConst 11 (SInt 0%Z))))] [];
      FragFun.FAssign 12 [102] (FragFun.RCall 15 false false false (XName 16 100) [XBin 18 (XName 19 101) kSub (XConst 22 (SInt 1%Z))]);
      FragFun.FReturn 23 (Some (FragFun.RExp (XBin 24 (XName 25 102) kAdd (XName 28 101))))];
   FragFun.FAssign 30 [103] (FragFun.RCall 33 false false false (XName 34 100) [XConst 36 (SInt 3%Z)])]%N.
Example C01_fun_semantics_nonvacuous :
  forallb FragFunProofs.fsrc_t ex_rec = true /\
  let run d := FragFun.frun Py.binop Py.cmpop Py.unop Py.truth Py.cval Py.is_and {| sub := fun _ => true |} (fun _ _ => true) d
                 (FragFun.finstr_module {| sub := fun _ => true |} true ex_rec) (fun _ => None) VNone in
  FragFun.f_exc (run 5%nat) = None /\ FragFun.f_env (run 5%nat) 103%N = Some (VInt 6) /\ FragFun.f_env (run 5%nat) 102%N = None /\
  FragFun.f_exc (run 3%nat) = Some FragFun.FFuel /\
  FragFun.f_exc (FragFun.frun Py.binop Py.cmpop Py.unop Py.truth Py.cval Py.is_and {| sub := fun _ => false |} (fun _ _ => true) 3%nat ex_rec (fun _ => None) VNone) = Some FragFun.FFuel.
Proof. vm_compute. repeat split; reflexivity. Qed.

(* ... and with LOOPS AND FUNCTIONS TOGETHER (model/FragProg.v: while / else / break / continue in function bodies and at module level, return from
   inside loops, calls from loops, recursion; fuel per loop execution and per call depth; one policy over test, body and function guards) - it restates
   C01_frag_semantics' statement layer and C01_fun_semantics for the larger fragment.  K-prog ties it to the real rewriter (whole-tree equality), CPython and the runtime. *)
Theorem C01_prog_semantics : forall binop cmpop unop truth cval is_and fuel c ge pol c0 pol0 m d r sv sv',
  forallb FragProgProofs.psrc_t m = true ->
  FragProg.p_exc (FragProg.prun binop cmpop unop truth cval is_and c pol fuel d (FragProg.pinstr_module c ge m) r sv) =
  FragProg.p_exc (FragProg.prun binop cmpop unop truth cval is_and c0 pol0 fuel d m r sv') /\
  FragProg.p_env (FragProg.prun binop cmpop unop truth cval is_and c pol fuel d (FragProg.pinstr_module c ge m) r sv) =
  FragProg.p_env (FragProg.prun binop cmpop unop truth cval is_and c0 pol0 fuel d m r sv').
Proof. exact FragProgProofs.prog_plain. Qed.
Print Assumptions C01_prog_semantics.

(* non-vacuity: `def g(p): i = 0; while True: i = i + 1; if i > p: break` / `return i`, then `a = 0; while a < 2: a = g(a)`: a module-level loop
   calling a function that loops and breaks; every event subscribed; ends with a = 2 (the module-level loop needs fuel 3, for two
   iterations and the closing test: with fuel 2 both the source and the instrumented program run out of fuel) *)
Definition ex_prog : list FragProg.pstmt :=
  [FragProg.PDef 1 100 [101]
     [FragProg.PAssign 4 [102] (FragFun.RExp (XConst 7 (SInt 0%Z)));
      FragProg.PWhile 8 (XConst 9 (SBool true))
        [FragProg.PAssign 10 [102] (FragFun.RExp (XBin 13 (XName 14 102) kAdd (XConst 17 (SInt 1%Z))));
         FragProg.PIf 18 (XCmp 19 (XName 20 102) [kGt] [XName 23 101]) [FragProg.PBreak 25] []] [];
      FragProg.PReturn 26 (Some (FragFun.RExp (XName 27 102)))];
   FragProg.PAssign 29 [103] (FragFun.RExp (XConst 32 (SInt 0%Z)));
   FragProg.PWhile 33 (XCmp 34 (XName 35 103) [kLt] [XConst 38 (SInt 2%Z)])
     [FragProg.PAssign 39 [103] (FragFun.RCall 42 false false false (XName 43 100) [XName 45 103])] []]%N.
Example C01_prog_semantics_nonvacuous :
  forallb FragProgProofs.psrc_t ex_prog = true /\
  let run fuel := FragProg.prun Py.binop Py.cmpop Py.unop Py.truth Py.cval Py.is_and {| sub := fun _ => true |} (fun _ _ => true) fuel 3
                    (FragProg.pinstr_module {| sub := fun _ => true |} true ex_prog) (fun _ => None) VNone in
  FragProg.p_exc (run 5%nat) = None /\ FragProg.p_env (run 5%nat) 103%N = Some (VInt 2) /\
  FragProg.p_exc (run 2%nat) = Some (FragProg.PO FragFun.FFuel) /\
  FragProg.p_exc (FragProg.prun Py.binop Py.cmpop Py.unop Py.truth Py.cval Py.is_and {| sub := fun _ => false |} (fun _ _ => true) 2 3 ex_prog (fun _ => None) VNone)
  = Some (FragProg.PO FragFun.FFuel).
Proof. vm_compute. repeat split; reflexivity. Qed.
