(* C18 - node lookup tables describe the source the handler is looking at.
   Model: model/Book.v = BookkeepingVisitor.generic_visit as the ordered list of table writes over a generic tree
   (node = statement flag, id, children each marked as sitting in a single-node field or in a list field), tied to
   ast_bookkeeping.py by the K-book correspondence of ./check C18 (every node of every exported tree).
   cs_lookup / ps_lookup replay the writes (setdefault / assignment) exactly as the dictionaries do. *)
From Coq Require Import List NArith Bool.
Import ListNotations.
From PyccoloV Require Import model.Book proofs.BookProofs proofs.BookExact.
From PyccoloV Require Import gen.BookOrder model.BookHist proofs.BookHistProofs.

(* the containing statement really contains the node: it is a statement of the tree and the node lies in its sub-tree *)
Theorem C18_contains : forall t k s, wf t -> cs_lookup (visit None t) k None = Some s -> contains t s k.
Proof. exact containing_stmt_contains. Qed.
Print Assumptions C18_contains.

(* the parent statement is a statement of the tree that properly contains the node *)
Theorem C18_parent : forall t k p, ps_lookup (visit None t) k None = Some p -> properly_contains t p k.
Proof. exact parent_stmt_contains. Qed.
Print Assumptions C18_parent.

(* every node of the tree is entered in ast_node_by_id under its own id *)
Theorem C18_node : forall t cur n, In n (nodes t) -> In (WNode (nid n)) (visit cur t).
Proof. exact every_node_registered. Qed.
Print Assumptions C18_node.

(* the write-level statements behind the two lookups (for every inherited `current statement`) *)
Theorem C18_tables : forall n cur w k s, wf n -> In w (visit cur n) -> cs_write w = Some (k, s) ->
  (cur = Some s /\ exists K, In K (nodes n) /\ nid K = k) \/ contains n s k.
Proof. exact cs_writes_ok. Qed.
Print Assumptions C18_tables.

(* EXACTNESS ("its parent statement and outer-statement classification agree with the lexical structure"): `lexp` is the lexical
   definition - the nearest proper ancestor that is a statement, by one recursive descent that remembers the last statement passed.
   For every tree in which statements only sit in list fields and node ids are distinct, and for every statement of it (the root
   included): the table's entry IS the lexical parent statement, and there is no entry exactly when no statement encloses it. *)
Theorem C18_parent_exact : forall t, wf t -> NoDup (ids t) -> forall K, In K (nodes t) -> nstmt K = true ->
  ps_lookup (visit None t) (nid K) None = joinp (lexp None t (nid K)).
Proof. exact ps_lookup_exact. Qed.
Print Assumptions C18_parent_exact.

(* stmt_only_has_ancestor_types (is_outer_stmt, is_initial_frame_stmt): walking up the parent-statement TABLE while the types are allowed
   gives the answer that walking up the LEXICAL parents gives, for every assignment of types to nodes, every set of allowed types, every
   statement and every number of steps *)
Theorem C18_outer_exact : forall (ty : N -> N) (allowed : N -> bool) t, wf t -> NoDup (ids t) ->
  forall K, In K (nodes t) -> nstmt K = true -> forall fuel,
  only_allowed_tbl ty allowed t (nid K) fuel = only_allowed_lex ty allowed t (nid K) fuel.
Proof. exact outer_exact. Qed.
Print Assumptions C18_outer_exact.

(* ... and for ANY node the library is asked about (a decorator, a class base, an assignment target, a with-item, an except handler: nodes
   that have entries of their own in the parent-statement table, pointing at their own statement): the query starts from the node's
   containing statement, which is a statement of the tree that contains the node, and answers as the lexical walk from that statement does *)
Theorem C18_outer_any_node : forall (ty : N -> N) (allowed : N -> bool) t, wf t -> NoDup (ids t) ->
  forall k s, cs_lookup (visit None t) k None = Some s -> forall fuel,
  contains t s k /\ only_allowed_node ty allowed t k fuel = only_allowed_lex ty allowed t s fuel.
Proof. exact outer_node_exact. Qed.
Print Assumptions C18_outer_any_node.

(* histories of instrumentations (exec, decorator, import; the same path again; other paths): model/BookHist.v.  gen/BookOrder.v
   is REGENERATED from AstRewriter.visit on every run and says in which order the old bookkeeper of a path is removed and the new
   one added.  For every history whose new nodes are live objects not yet in the tables (`hist_fresh`), and for every bookkeeper
   whose code can still run (the latest whole-module instrumentation of a path and every single-function instrumentation of it
   since): all its node ids are in the tables and the line table of its module maps each of its lines to its own statement. *)
Theorem C18_history : forall gc ops, hist_fresh gc ops st0 ->
  forall q b, In b (valid (BookHist.run book_remove_first book_remove_old_mid gc ops st0) q) ->
    (forall k, In k (b_ids b) -> gn (BookHist.run book_remove_first book_remove_old_mid gc ops st0) k = true) /\
    (forall l, has_line l (b_lines b) = true -> gl (BookHist.run book_remove_first book_remove_old_mid gc ops st0) (b_mid b) l = lookup l (b_lines b) None).
Proof. intros gc ops HF q b Hb. exact (history_entries_valid gc ops st0 inv0 HF q b Hb). Qed.
Print Assumptions C18_history.
(* `hist_fresh` assumes of every new bookkeeper that its module id is not the key of a line table still in use.  A key that is
   the address of the tree handed to the rewriter does not meet this: that tree dies after compilation, and a later tree at the
   same address merges its lines into the old table (finding C18-line-tables-merge, repaired by dbf4257).  With the key being the
   id of the registered copy of the tree, one of the bookkeeper's OWN nodes (gen/BookOrder.v: book_mid_is_registered_node, checked
   per instrumentation by K-hist), the assumption follows from what remains: the new nodes are live objects that are not in the
   tables yet. *)
Theorem C18_history_own_keys : forall gc ops, book_mid_is_registered_node = true -> hist_fresh_ids gc ops st0 ->
  forall q b, In b (valid (BookHist.run book_remove_first book_remove_old_mid gc ops st0) q) ->
    (forall k, In k (b_ids b) -> gn (BookHist.run book_remove_first book_remove_old_mid gc ops st0) k = true) /\
    (forall l, has_line l (b_lines b) = true -> gl (BookHist.run book_remove_first book_remove_old_mid gc ops st0) (b_mid b) l = lookup l (b_lines b) None).
Proof. intros gc ops _ HF q b Hb. exact (history_entries_valid_ids gc ops HF q b Hb). Qed.
Print Assumptions C18_history_own_keys.

(* the other order, kept as a checked witness: a file instrumented twice loses the lines both versions share *)
Theorem C18_remove_after_add_refuted :
  let b1 := {| b_mid := 1; b_ids := [10; 11]; b_lines := [(1, 11)] |}%N in
  let b2 := {| b_mid := 2; b_ids := [20; 21]; b_lines := [(1, 21)] |}%N in
  let s := BookHist.run false false true [ {| o_path := 0%N; o_kind := KModule; o_bk := b1 |}; {| o_path := 0%N; o_kind := KModule; o_bk := b2 |} ] st0 in
  valid s 0%N = [b2] /\ gl s 2%N 1%N = None.
Proof. exact remove_after_add_refuted. Qed.
Print Assumptions C18_remove_after_add_refuted.

Example C18_history_nonvacuous :
  let b1 := {| b_mid := 10; b_ids := [10; 11]; b_lines := [(1, 11)] |}%N in
  let b2 := {| b_mid := 20; b_ids := [20; 21]; b_lines := [(1, 21)] |}%N in
  let ops := [ {| o_path := 0%N; o_kind := KModule; o_bk := b1 |}; {| o_path := 0%N; o_kind := KModule; o_bk := b2 |} ] in
  hist_fresh_ids true ops st0 /\ hist_fresh true ops st0 /\ valid (BookHist.run book_remove_first book_remove_old_mid true ops st0) 0%N = [b2].
Proof.
  intros b1 b2 ops.
  assert (H : hist_fresh_ids true ops st0).
  { split; [|split; [|exact I]].
    - split; [intros k _; reflexivity|now left].
    - split; [|now left]. intros k [<-|[<-|[]]]; reflexivity. }
  split; [exact H|]. split; [|reflexivity].
  apply hist_fresh_of_ids; [exact inv0|intros q b []|exact H].
Qed.

(* non-vacuity: `@deco def g(): a = 1; return a` then `try: x = 1 except E: y = 2`
   0 Module [1 FunctionDef [2 Assign [3 Name; 4 Const]; 5 Return [6 Name]; 7 deco Name]; 8 Try [9 Assign; 10 handler [11 E; 12 Assign]]] *)
Local Open Scope N_scope.
Definition ex_tree : node :=
  Nd false 0 [(true, Nd true 1 [(true, Nd true 2 [(true, Nd false 3 []); (false, Nd false 4 [])]);
                                (true, Nd true 5 [(false, Nd false 6 [])]); (true, Nd false 7 [])]);
              (true, Nd true 8 [(true, Nd true 9 []); (true, Nd false 10 [(false, Nd false 11 []); (true, Nd true 12 [])])])].
Example C18_nonvacuous :
  wf ex_tree /\
  cs_lookup (visit None ex_tree) 7 None = Some 1 /\       (* the decorator belongs to the def, not to `return a` *)
  cs_lookup (visit None ex_tree) 11 None = Some 8 /\      (* the handler type belongs to the try *)
  ps_lookup (visit None ex_tree) 12 None = Some 8 /\      (* the statement in the except body has the try as parent *)
  ps_lookup (visit None ex_tree) 1 None = None.           (* module-level statements have no parent statement *)
Proof. split; [cbn; repeat split; auto; discriminate|]. vm_compute. repeat split; reflexivity. Qed.
Example C18_exact_nonvacuous :
  NoDup (ids ex_tree) /\ joinp (lexp None ex_tree 12) = Some 8 /\ joinp (lexp None ex_tree 1) = None /\
  only_allowed_lex (fun _ => 0) (fun _ => true) ex_tree 12 5 = true /\ only_allowed_lex (fun _ => 0) (fun _ => false) ex_tree 12 5 = false.
Proof.
  (* the ids are 0 .. 12 in traversal order *)
  split; [apply (NoDup_map_inv N.to_nat); exact (seq_NoDup 13 0)|]. vm_compute. repeat split; reflexivity.
Qed.
