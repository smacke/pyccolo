(* C05 - stacked tracers each behave as if alone, served outermost-first.
   (delivery) one occurrence reaching emit_event with a stack of observing tracers: the calls made are stack_calls
             (C05_emit_observing, from the runtime fold of model/Rt.v whose decision functions are regenerated from
             tracer.py / emit_event.py on every run); what tracer number k receives is exactly what it receives as the only tracer
             (C05_solo_delivery), a tracer without a handler for the event receives nothing (C05_unsubscribed_silent), and
             the calls are strictly ordered by (stack position, handler position): outermost first, nothing twice
             (C05_order).
   (rewrite)  the rewrite is driven by the union of the subscriptions; check_proj K_i out_solo_i out_stacked is evaluated
             in coqc for every tracer i of every generated stack: the output for the stack and the output for tracer i
             alone, K-erased for K_i = tracer i's events, are the same tree.  C05_proj_sound turns a passed check into
             equivalence with respect to the K_i-stream for every semantics satisfying the stated laws.
   (dynamic)  ./check C05 compares, on the real library, each tracer's recorded stream stacked vs alone, and the global
             delivery log with the stream of a single tracer subscribed to the union expanded in stack order. *)
From Coq Require Import List ZArith NArith Bool Arith Sorted.
Import ListNotations.
From PyccoloV Require model.RwFrag model.FragSem proofs.FragSemProofs model.FragProg proofs.FragProgProofs.
From PyccoloV Require Import gen.PyAst gen.Ids gen.Events gen.EmitRet model.Val model.Rt model.Tree model.Erase model.Prune
  proofs.RtProofs proofs.DeliverProofs proofs.EraseSound proofs.PruneSound.

Theorem C05_emit_observing : forall ev ts v, ast_event ev = true -> Forall observing ts -> plain v = true ->
  exists ths, emit ev true fl0 ts v = (TVal (make_ret ev v), fl0, ths, stack_calls 0 ts v).
Proof. exact emit_observing. Qed.
Print Assumptions C05_emit_observing.

Theorem C05_solo_delivery : forall ts ti k t v, nth_error ts k = Some t ->
  filter (fun c => c_ti c =? ti + k) (stack_calls ti ts v) = stack_calls (ti + k) [t] v.
Proof. exact stack_solo. Qed.
Print Assumptions C05_solo_delivery.

Theorem C05_unsubscribed_silent : forall ti t v, t_handlers t = [] -> stack_calls ti [t] v = [].
Proof. exact unsubscribed_silent. Qed.
Print Assumptions C05_unsubscribed_silent.

Theorem C05_order : forall ts ti v, StronglySorted lex (stack_calls ti ts v).
Proof. exact stack_sorted. Qed.
Print Assumptions C05_order.

Theorem C05_value : forall ts v, Forall (fun c => c_val c = v) (stack_calls 0 ts v).
Proof. exact stack_values. Qed.
Print Assumptions C05_value.

Theorem C05_proj_sound :
  forall (D : Type) (dnone : D) (sem : N -> list scalar -> list (list D) -> D) (K : list N) (eqvK : list D -> list D -> Prop),
  (forall l, eqvK l l) ->
  (forall a b, eqvK a b -> eqvK b a) ->
  (forall a b c, eqvK a b -> eqvK b c -> eqvK a c) ->
  (forall a a' b b', eqvK a a' -> eqvK b b' -> eqvK (a ++ b) (a' ++ b')) ->
  (forall k sc fs fs', Forall2 eqvK fs fs' -> eqvK [sem k sc fs] [sem k sc fs']) ->
  (forall k sc fs l, postk K k sc fs = Some l -> eqvK [den D dnone sem (T k sc fs)] (map (den D dnone sem) l)) ->
  forall out_solo out_stacked, check_proj K out_solo out_stacked = true -> eqvK [den D dnone sem out_solo] [den D dnone sem out_stacked].
Proof. exact check_proj_sound. Qed.
Print Assumptions C05_proj_sound.

(* non-vacuity: three tracers; the middle one has two enabled handlers and a disabled one; the last one is not subscribed *)
Definition hobs (en : bool) : hspec := {| h_reentrant := false; h_guard_skip := false; h_pred := en; h_fun := fun _ => HRet RNone |}.
Definition tr (hs : list hspec) : tracer :=
  {| t_hard_disabled := false; t_allow_reentrant := false; t_multi_thread := false; t_file_ok := true; t_propagate := false; t_handlers := hs |}.
Definition ex_stack : list tracer := [tr [hobs true]; tr [hobs true; hobs false; hobs true]; tr []].
Example C05_nonvacuous :
  stack_calls 0 ex_stack (RUser 7 false) = [(0, 0, RUser 7 false); (1, 0, RUser 7 false); (1, 2, RUser 7 false)]
  /\ filter (fun c => c_ti c =? 1) (stack_calls 0 ex_stack (RUser 7 false)) = stack_calls 1 [tr [hobs true; hobs false; hobs true]] (RUser 7 false).
Proof. vm_compute. split; reflexivity. Qed.

(* the stack as a statement about EVALUATION on the fragment (model/FragSem.v): a program instrumented for a stack of observing tracers
   is instrumented for the union of their subscriptions; what tracer i is delivered (the emissions of its events, in order, with value
   and node) is what it is delivered when it is the only tracer - for all primitive operations, stacks, source modules, environments *)
Definition union_cfg (cs : list RwFrag.rcfg) : RwFrag.rcfg := {| RwFrag.sub := fun e => existsb (fun c => RwFrag.sub c e) cs |}.
Theorem C05_frag_stack : forall binop cmpop unop truth cval is_and (cs : list RwFrag.rcfg) (c : RwFrag.rcfg) body r sv sv',
  In c cs -> forallb FragSemProofs.src_s body = true ->
  FragSem.filter_log c (FragSem.s_log (FragSem.exec_l binop cmpop unop truth cval is_and (FragSem.instr_module (union_cfg cs) body) r sv)) =
  FragSem.filter_log c (FragSem.s_log (FragSem.exec_l binop cmpop unop truth cval is_and (FragSem.instr_module c body) r sv')).
Proof.
  intros binop cmpop unop truth cval is_and cs c body r sv sv' Hin Hs.
  apply FragSemProofs.frag_projection; [exact Hs|]. intros e He. cbn. apply existsb_exists. exists c. split; assumption.
Qed.
Print Assumptions C05_frag_stack.

(* ... and with LOOPS AND FUNCTIONS (model/FragProg.v), as long as no handler of the stack touches a guard (guards in any fixed state G) *)
Theorem C05_prog_stack : forall binop cmpop unop truth cval is_and fuel (cs : list RwFrag.rcfg) (c : RwFrag.rcfg) (G : FragProg.guard -> bool) ge m d r sv sv',
  In c cs -> forallb FragProgProofs.psrc_t m = true ->
  FragSem.filter_log c (FragProg.p_log (FragProg.prun binop cmpop unop truth cval is_and (union_cfg cs) (fun _ g => G g) fuel d (FragProg.pinstr_module (union_cfg cs) ge m) r sv)) =
  FragSem.filter_log c (FragProg.p_log (FragProg.prun binop cmpop unop truth cval is_and c (fun _ g => G g) fuel d (FragProg.pinstr_module c ge m) r sv')).
Proof.
  intros binop cmpop unop truth cval is_and fuel cs c G ge m d r sv sv' Hin Hs.
  apply FragProgProofs.prog_projection; [exact Hs|]. intros e He. cbn. apply existsb_exists. exists c. split; assumption.
Qed.
Print Assumptions C05_prog_stack.
