(* C06 - a tracer's handlers fire exactly while its own innermost context says enabled.
   Model: model/Ctx.v (tracing_non_context, the cleanup callback, _enable_tracing/_disable_tracing, and the guard tests
   that rewritten top-level / function / lambda / loop-in-function code performs when it runs), tied to tracer.py by
   the K-ctx correspondence of ./check C06.
   Reference (the property): spec_items keeps, per tracer, a stack of booleans (one per context entered for it;
   exec-style contexts copy the top); a site executed at any moment is delivered to tracer t iff that stack is
   non-empty and its top is True.  Histories are trees (ICtx / IExec / ISite / IRaise / ITry), so they are well nested
   by construction, and IRaise makes every enclosing context exit through its `finally` path. *)
From Coq Require Import List NArith Bool Arith.
Import ListNotations.
From PyccoloV Require Import model.Ctx proofs.CtxProofs.

(* for every history tree over any number of tracers (AST-level and system-level), every kind of site, from any
   state satisfying the invariant: whether an exception escapes and, for every site executed, the set of tracers
   whose handlers run, are exactly what the stack-of-booleans reference says *)
Theorem C06_delivery : forall cfg items s sp, Inv s -> Rel s sp -> wf_items (ntr s) items ->
  let '(r, s', lg) := run_items cfg items s in
  let '(r2, lg2) := spec_items items sp in
  r = r2 /\ view_log (ntr s) lg = lg2.
Proof. exact delivery_general. Qed.
Print Assumptions C06_delivery.

(* the hypotheses hold of a fresh process (any number of tracers, any pre-installed trace function) *)
Theorem C06_initial : forall n pre, Inv (init_cst n pre) /\ Rel (init_cst n pre) (init_spec n).
Proof. intros; split; [apply init_inv|apply init_rel]. Qed.
Print Assumptions C06_initial.

(* non-vacuity, on the history that fails when an inner exit clears FUNCTION_TRACING_ENABLED (repaired by b9bd332): outer tracer 1
   keeps receiving function-body events after inner tracer 0 has come and gone; nothing is delivered inside tracer 1's
   disabled context *)
Definition ex_cfg (t : nat) : tcfg := {| has_sys := Nat.eqb t 0; patch_meta := true |}.
Definition ex_hist : list item :=
  [ICtx 1 false [ICtx 0 false [ISite KFunc]; ISite KFunc; ICtx 1 true [ISite KLoopInFunc; ITry [ICtx 0 false [IRaise]]]; ISite KLam]].
Example C06_nonvacuous :
  wf_items 2 ex_hist /\
  view_log 2 (snd (run_items ex_cfg ex_hist (init_cst 2 (TfUser 7)))) =
    [(KFunc, [true; true]); (KFunc, [false; true]); (KLoopInFunc, [false; false]); (KLam, [false; true])].
Proof. split; [cbn; repeat split; auto; discriminate|vm_compute; reflexivity]. Qed.
